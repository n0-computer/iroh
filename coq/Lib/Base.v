(* Shared base of the models: the result type [res] with [sat], the statement form for "panics only
   if .., returns only ..", and its rules; the boolean equalities of options, lists, results and byte
   strings, each with its reading as [=]; [len]; byte strings from hex and text literals; the
   harness's pseudo-random [fill].  No axioms. *)
From Coq Require Export String Ascii.
From Coq Require Export List NArith ZArith Bool Lia.
Export ListNotations.
Open Scope N_scope.

(* [cbn] and [simpl] unfold a model's step without computing its numbers. *)
Arguments N.add : simpl never.
Arguments N.sub : simpl never.
Arguments N.mul : simpl never.
Arguments N.eqb : simpl never.
Arguments N.ltb : simpl never.
Arguments N.leb : simpl never.
Arguments N.div : simpl never.
Arguments N.modulo : simpl never.
Arguments N.pow : simpl never.

(* Outcome of a Rust call: a value, an error (small code), or a panic. *)
Inductive res (A : Type) : Type :=
| Ok (a : A)
| Err (e : N)
| Panic.
Arguments Ok {A} a.
Arguments Err {A} e.
Arguments Panic {A}.

Definition res_eqb {A} (eqb : A -> A -> bool) (x y : res A) : bool :=
  match x, y with
  | Ok a, Ok b => eqb a b
  | Err e, Err f => N.eqb e f
  | Panic, Panic => true
  | _, _ => false
  end.

Definition is_panic {A} (x : res A) : bool :=
  match x with Panic => true | _ => false end.

Definition opt_eqb {A} (eqb : A -> A -> bool) (x y : option A) : bool :=
  match x, y with
  | Some a, Some b => eqb a b
  | None, None => true
  | _, _ => false
  end.

Fixpoint list_eqb {A} (eqb : A -> A -> bool) (x y : list A) : bool :=
  match x, y with
  | [], [] => true
  | a :: x', b :: y' => eqb a b && list_eqb eqb x' y'
  | _, _ => false
  end.

Definition bytes := list N.
Definition bytes_eqb : bytes -> bytes -> bool := list_eqb N.eqb.

Lemma list_eqb_refl {A} (eqb : A -> A -> bool) :
  (forall a, eqb a a = true) -> forall l, list_eqb eqb l l = true.
Proof. intros H l; induction l as [|a l IH]; cbn; [reflexivity|]. now rewrite H, IH. Qed.

Lemma list_eqb_eq {A} (eqb : A -> A -> bool) :
  (forall a b, eqb a b = true -> a = b) ->
  forall x y, list_eqb eqb x y = true -> x = y.
Proof.
  intros H x; induction x as [|a x IH]; intros [|b y]; cbn; try discriminate; auto.
  intros E; apply andb_prop in E as [E1 E2]. f_equal; auto.
Qed.

Lemma list_eqb_iff {A} (eqb : A -> A -> bool) :
  (forall a b, eqb a b = true <-> a = b) -> forall x y, list_eqb eqb x y = true <-> x = y.
Proof.
  intros H x y. split.
  - apply list_eqb_eq. intros a b. apply H.
  - intros ->. apply list_eqb_refl. intros a. now apply H.
Qed.

Lemma opt_eqb_refl {A} (eqb : A -> A -> bool) :
  (forall a, eqb a a = true) -> forall x, opt_eqb eqb x x = true.
Proof. intros H [a|]; cbn; auto. Qed.

Lemma opt_eqb_eq {A} (eqb : A -> A -> bool) :
  (forall a b, eqb a b = true -> a = b) -> forall x y, opt_eqb eqb x y = true -> x = y.
Proof. intros H [a|] [b|]; cbn; try discriminate; auto. intros E. f_equal. auto. Qed.

Lemma opt_eqb_iff {A} (eqb : A -> A -> bool) :
  (forall a b, eqb a b = true <-> a = b) -> forall x y, opt_eqb eqb x y = true <-> x = y.
Proof.
  intros H x y. split.
  - apply opt_eqb_eq. intros a b. apply H.
  - intros ->. apply opt_eqb_refl. intros a. now apply H.
Qed.

Lemma res_eqb_iff {A} (eqb : A -> A -> bool) :
  (forall a b, eqb a b = true <-> a = b) -> forall x y, res_eqb eqb x y = true <-> x = y.
Proof.
  intros H [a|e|] [b|f|]; cbn; rewrite ?H, ?N.eqb_eq; split; congruence.
Qed.

Lemma bytes_eqb_refl l : bytes_eqb l l = true.
Proof. apply list_eqb_refl, N.eqb_refl. Qed.

Lemma bytes_eqb_eq x y : bytes_eqb x y = true -> x = y.
Proof. apply list_eqb_eq. intros a b; apply N.eqb_eq. Qed.

Lemma bytes_eqb_iff x y : bytes_eqb x y = true <-> x = y.
Proof. apply list_eqb_iff, N.eqb_eq. Qed.

Lemma bytes_eqb_neq x y : bytes_eqb x y = false <-> x <> y.
Proof. rewrite <- bytes_eqb_iff. now destruct (bytes_eqb x y). Qed.

Lemma opt_N_eqb_refl (x : option N) : opt_eqb N.eqb x x = true.
Proof. apply opt_eqb_refl, N.eqb_refl. Qed.

Lemma opt_N_eqb_eq (x y : option N) : opt_eqb N.eqb x y = true -> x = y.
Proof. apply opt_eqb_eq. intros a b. apply N.eqb_eq. Qed.

Lemma opt_N_eqb_iff (x y : option N) : opt_eqb N.eqb x y = true <-> x = y.
Proof. apply opt_eqb_iff, N.eqb_eq. Qed.

Definition len {A} (l : list A) : N := N.of_nat (length l).

(* Inputs of correspondence cases are written as hex string literals.  [nib] is for those literals
   only: total, 0 on any other character.  The hex digit as Rust's parsers read it is [Hex.hexval],
   [Dec.hexval_any]. *)
Definition nib (c : ascii) : N :=
  let n := N_of_ascii c in
  if (48 <=? n) && (n <=? 57) then n - 48
  else if (97 <=? n) && (n <=? 102) then n - 87
  else if (65 <=? n) && (n <=? 70) then n - 55
  else 0.

Fixpoint hex (s : string) : bytes :=
  match s with
  | String a (String b r) => (nib a * 16 + nib b) :: hex r
  | _ => []
  end.

Fixpoint str_bytes (s : string) : bytes :=
  match s with
  | EmptyString => []
  | String a r => N_of_ascii a :: str_bytes r
  end.

(* The first n bytes of a pseudo-random stream, reproduced identically by the
   Rust harness (hcommon::fill): x_{i+1} = (x_i * 1103515245 + 12345) mod 2^31,
   byte = (x / 2^16) mod 256. *)
Fixpoint lcg_bytes (n : nat) (x : N) : bytes :=
  match n with
  | O => []
  | S n' => let x' := (x * 1103515245 + 12345) mod 2147483648 in
            ((x' / 65536) mod 256) :: lcg_bytes n' x'
  end.
Definition fill (n seed : N) : bytes := lcg_bytes (N.to_nat n) seed.

Lemma lcg_bytes_length n x : length (lcg_bytes n x) = n.
Proof. revert x; induction n as [|n IH]; intros x; cbn [lcg_bytes length]; [reflexivity|]. now rewrite IH. Qed.

(* [r] panics only if [Q], and what it returns satisfies [P]: one statement per function says when it
   may panic and what it accepts.  [sat False P r] is "never panics", [sat True P r] speaks of the
   result alone.  [sat_total] and [sat_no_panic] read totality out of a [sat] statement, [total_sat]
   makes one of a totality lemma, for the premise of [sat_bind]. *)
Definition sat {A} (Q : Prop) (P : A -> Prop) (r : res A) : Prop :=
  match r with Ok a => P a | Err _ => True | Panic => Q end.

(* stated over the match, so that it applies to every model's [bind] (g the identity) and to the
   matches that replace the error code *)
Lemma sat_bind {A B} (Q : Prop) (P : A -> Prop) (R : B -> Prop) (x : res A) (f : A -> res B) (g : N -> N) :
  sat Q P x -> (forall a, P a -> sat Q R (f a)) ->
  sat Q R (match x with Ok a => f a | Err e => Err (g e) | Panic => Panic end).
Proof. destruct x; cbn [sat]; auto. Qed.

Lemma sat_intro {A} (Q : Prop) (P : A -> Prop) (r : res A) :
  (r = Panic -> Q) -> (forall a, r = Ok a -> P a) -> sat Q P r.
Proof. destruct r; cbn [sat]; auto. Qed.

Lemma sat_ok {A} (Q : Prop) (P : A -> Prop) (r : res A) a : sat Q P r -> r = Ok a -> P a.
Proof. intros H ->. exact H. Qed.

Lemma sat_mono {A} (Q Q' : Prop) (P P' : A -> Prop) (r : res A) :
  (Q -> Q') -> (forall a, P a -> P' a) -> sat Q P r -> sat Q' P' r.
Proof. destruct r; cbn [sat]; auto. Qed.

Lemma sat_no_panic {A} (Q : Prop) (P : A -> Prop) (r : res A) : sat Q P r -> ~ Q -> r <> Panic.
Proof. intros H N ->. exact (N H). Qed.

Lemma sat_total {A} (P : A -> Prop) (r : res A) : sat False P r -> r <> Panic.
Proof. intros H. exact (sat_no_panic False P r H (fun F => F)). Qed.

Lemma total_sat {A} (Q : Prop) (r : res A) : r <> Panic -> sat Q (fun _ => True) r.
Proof. intros T. apply sat_intro; [contradiction|auto]. Qed.
