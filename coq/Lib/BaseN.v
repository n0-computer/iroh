(* Base-2^k text codecs in the style of the `data-encoding` crate (most significant bit first,
   no padding, no ignored characters, optional check of trailing bits): hexlower (k=4), base32
   (k=5, RFC 4648 upper case), z-base-32 (k=5).  Everything works on bit LISTS: a byte string
   is flattened to bits and cut into groups of k bits, each a symbol value, so the proofs are
   list proofs without shifts or masks.  The theorems hold of every codec whose alphabet has 2^k
   distinct characters.  At the end of the file stand the ASCII case mappings that the models put
   in front of a codec.  No axioms. *)
From V Require Import Lib.Base Lib.Lists.
From Coq Require Import PeanoNat.
From V Require Import Lib.LiaBool.
Open Scope N_scope.

(* The k low bits of a number: [bits_le] least significant first, [bits_of]
   most significant first, as the codecs pack them. *)

Fixpoint bits_le (k : nat) (v : N) : list bool :=
  match k with
  | O => []
  | S k' => N.odd v :: bits_le k' (N.div2 v)
  end.
Definition bits_of (k : nat) (v : N) : list bool := rev (bits_le k v).

Fixpoint val_le (l : list bool) : N :=
  match l with
  | [] => 0
  | b :: r => N.b2n b + 2 * val_le r
  end.
Definition val_of (l : list bool) : N := val_le (rev l).

Lemma bits_le_length k v : length (bits_le k v) = k.
Proof. revert v; induction k as [|k IH]; intros v; cbn; [reflexivity|]. now rewrite IH. Qed.

Lemma bits_of_length k v : length (bits_of k v) = k.
Proof. unfold bits_of. now rewrite rev_length, bits_le_length. Qed.

Lemma val_le_bits_le k : forall v, v < 2 ^ N.of_nat k -> val_le (bits_le k v) = v.
Proof.
  induction k as [|k IH]; intros v Hv.
  - cbn in *. lia.
  - cbn [bits_le val_le].
    rewrite Nat2N.inj_succ, N.pow_succ_r' in Hv.
    rewrite IH.
    + pose proof (N.div2_odd v) as E. lia.
    + rewrite N.div2_div. apply N.div_lt_upper_bound; [discriminate|exact Hv].
Qed.

Lemma b2n_odd b x : N.odd (N.b2n b + 2 * x) = b.
Proof. rewrite N.odd_add_mul_2. now destruct b. Qed.

Lemma b2n_div2 b x : N.div2 (N.b2n b + 2 * x) = x.
Proof. destruct b, x; reflexivity. Qed.

Lemma bits_le_val_le l : bits_le (length l) (val_le l) = l.
Proof.
  induction l as [|b r IH]; cbn [length bits_le val_le]; [reflexivity|].
  now rewrite b2n_odd, b2n_div2, IH.
Qed.

Lemma val_le_bound l : val_le l < 2 ^ N.of_nat (length l).
Proof.
  induction l as [|b r IH]; cbn [length val_le].
  - cbn. lia.
  - rewrite Nat2N.inj_succ, N.pow_succ_r'. destruct b; cbn [N.b2n]; lia.
Qed.

Lemma val_of_bits_of k v : v < 2 ^ N.of_nat k -> val_of (bits_of k v) = v.
Proof. intros H. unfold val_of, bits_of. rewrite rev_involutive. now apply val_le_bits_le. Qed.

Lemma bits_of_val_of l : bits_of (length l) (val_of l) = l.
Proof.
  unfold val_of, bits_of. rewrite <- (rev_length l), bits_le_val_le. apply rev_involutive.
Qed.

Lemma val_of_bound l : val_of l < 2 ^ N.of_nat (length l).
Proof. unfold val_of. rewrite <- (rev_length l). apply val_le_bound. Qed.

Section Group.
Context {A : Type}.

(* the last group is shorter if [k] does not divide [length l]; [f] is fuel, [length l] is enough *)
Fixpoint group (f k : nat) (l : list A) : list (list A) :=
  match f with
  | O => []
  | S f' => match l with
            | [] => []
            | _ => firstn k l :: group f' k (skipn k l)
            end
  end.
Definition chunks (k : nat) (l : list A) : list (list A) := group (length l) k l.

(* Lists.firstn_app_length and Lists.skipn_app_length at [n := length a] *)
Lemma firstn_app_exact (a b : list A) : firstn (length a) (a ++ b) = a.
Proof. now apply firstn_app_length. Qed.

Lemma skipn_app_exact (a b : list A) : skipn (length a) (a ++ b) = b.
Proof. now apply skipn_app_length. Qed.

Lemma group_S f k (l : list A) :
  l <> [] -> group (S f) k l = firstn k l :: group f k (skipn k l).
Proof. now destruct l. Qed.

Lemma group_concat k : (0 < k)%nat -> forall (vs : list (list A)) f,
  Forall (fun c => length c = k) vs -> (length (concat vs) <= f)%nat ->
  group f k (concat vs) = vs.
Proof.
  intros Hk vs; induction vs as [|c vs IH]; intros f Hall Hf.
  - now destruct f.
  - inversion Hall as [|? ? Hc Hvs]; subst.
    cbn [concat] in *. rewrite app_length in Hf.
    destruct f as [|f]; [lia|].
    rewrite group_S by (destruct c; [cbn in Hk; lia|discriminate]).
    rewrite firstn_app_exact, skipn_app_exact, IH by (auto; lia). reflexivity.
Qed.

Lemma chunks_concat k (vs : list (list A)) : (0 < k)%nat ->
  Forall (fun c => length c = k) vs -> chunks k (concat vs) = vs.
Proof. intros Hk H. unfold chunks. apply group_concat; auto. Qed.

Lemma group_uniform k : (0 < k)%nat -> forall n (l : list A) f,
  length l = (n * k)%nat -> (n <= f)%nat ->
  Forall (fun c => length c = k) (group f k l) /\
  concat (group f k l) = l /\ length (group f k l) = n.
Proof.
  intros Hk n; induction n as [|n IH]; intros l f Hl Hf.
  - apply length_zero_iff_nil in Hl as ->. destruct f; cbn; auto.
  - destruct f as [|f]; [lia|]. cbn [Nat.mul] in Hl.
    rewrite group_S by (intros ->; cbn in Hl; lia).
    destruct (IH (skipn k l) f) as (F & C & L); [rewrite skipn_length; lia|lia|].
    cbn [concat length]. rewrite C, L, firstn_skipn. repeat split.
    constructor; [rewrite firstn_length; lia|exact F].
Qed.

Lemma chunks_uniform k n (l : list A) : (0 < k)%nat -> length l = (n * k)%nat ->
  Forall (fun c => length c = k) (chunks k l) /\
  concat (chunks k l) = l /\ length (chunks k l) = n.
Proof.
  intros Hk Hl. unfold chunks. apply group_uniform; auto. rewrite Hl. nia.
Qed.

End Group.

(* Lists of n numbers below 2^k and bit strings of length n*k correspond: at k = 8 for bytes,
   at k = bitw for symbol values. *)

Lemma concat_bits_length k (vs : list N) :
  length (concat (map (bits_of k) vs)) = (length vs * k)%nat.
Proof.
  induction vs as [|v vs IH]; cbn [map concat length]; [reflexivity|].
  rewrite app_length, bits_of_length, IH. lia.
Qed.

Lemma map_bits_uniform k (vs : list N) : Forall (fun c => length c = k) (map (bits_of k) vs).
Proof. apply Forall_map, Forall_forall. intros v _. apply bits_of_length. Qed.

Lemma map_bits_val k (cs : list (list bool)) :
  Forall (fun c => length c = k) cs -> map (bits_of k) (map val_of cs) = cs.
Proof.
  induction 1 as [|c cs Hc _ IH]; cbn [map]; [reflexivity|].
  rewrite IH. f_equal. subst k. apply bits_of_val_of.
Qed.

Lemma vals_of_concat_bits k (vs : list N) :
  (0 < k)%nat -> Forall (fun v => v < 2 ^ N.of_nat k) vs ->
  map val_of (chunks k (concat (map (bits_of k) vs))) = vs.
Proof.
  intros Hk H. rewrite chunks_concat by (auto using map_bits_uniform). rewrite map_map.
  induction H as [|v vs Hv _ IH]; cbn [map]; [reflexivity|].
  now rewrite IH, val_of_bits_of.
Qed.

Lemma concat_bits_of_vals k n (l : list bool) :
  (0 < k)%nat -> length l = (n * k)%nat ->
  concat (map (bits_of k) (map val_of (chunks k l))) = l /\
  length (map val_of (chunks k l)) = n /\
  Forall (fun v => v < 2 ^ N.of_nat k) (map val_of (chunks k l)).
Proof.
  intros Hk Hl. destruct (chunks_uniform k n l Hk Hl) as (F & C & L).
  split; [|split].
  - rewrite map_bits_val by exact F. exact C.
  - now rewrite map_length.
  - apply Forall_map. eapply Forall_impl; [|exact F].
    intros c <-. apply val_of_bound.
Qed.

Definition byte_ok (b : N) : bool := b <? 256.
Definition bytes_ok (bs : bytes) : bool := forallb byte_ok bs.

Definition bytes_to_bits (bs : bytes) : list bool := concat (map (bits_of 8) bs).
Definition bits_to_bytes (l : list bool) : bytes := map val_of (chunks 8 l).

Lemma bytes_ok_Forall bs : bytes_ok bs = true <-> Forall (fun b => b < 256) bs.
Proof. apply forallb_Forall_iff. intros b. apply N.ltb_lt. Qed.

Lemma bytes_to_bits_length bs : length (bytes_to_bits bs) = (length bs * 8)%nat.
Proof. apply concat_bits_length. Qed.

Lemma bits_to_bytes_to_bits bs : bytes_ok bs = true -> bits_to_bytes (bytes_to_bits bs) = bs.
Proof. intros H. apply vals_of_concat_bits; [lia|]. now apply bytes_ok_Forall. Qed.

Lemma bytes_to_bits_to_bytes l m : length l = (m * 8)%nat ->
  bytes_to_bits (bits_to_bytes l) = l /\ length (bits_to_bytes l) = m /\
  bytes_ok (bits_to_bytes l) = true.
Proof.
  intros Hl. rewrite bytes_ok_Forall. apply concat_bits_of_vals; [lia|exact Hl].
Qed.

Definition sym_of (al : list N) (v : N) : N := nth (N.to_nat v) al 0.

Fixpoint index_of (ch : N) (al : list N) : option N :=
  match al with
  | [] => None
  | a :: r => if a =? ch then Some 0
              else match index_of ch r with Some i => Some (N.succ i) | None => None end
  end.

(* Lists.nodupb over again, which it shadows from here on; [codec_ok] is stated with this one, and
   Lists.nodupb_iff applies to it by conversion *)
Fixpoint nodupb (l : list N) : bool :=
  match l with
  | [] => true
  | a :: r => negb (existsb (N.eqb a) r) && nodupb r
  end.

Lemma index_of_sound ch al v : index_of ch al = Some v ->
  (N.to_nat v < length al)%nat /\ sym_of al v = ch.
Proof.
  unfold sym_of. revert v; induction al as [|a r IH]; intros v; cbn [index_of]; [discriminate|].
  destruct (N.eqb_spec a ch) as [->|_].
  - intros [= <-]. cbn. split; [lia|auto].
  - destruct (index_of ch r) as [i|]; [|discriminate].
    intros [= <-]. destruct (IH i eq_refl) as (L & S).
    rewrite N2Nat.inj_succ. cbn [length nth]. split; [lia|auto].
Qed.

Lemma index_of_complete al : nodupb al = true -> forall v,
  (N.to_nat v < length al)%nat -> index_of (sym_of al v) al = Some v.
Proof.
  unfold sym_of. intros ND%nodupb_iff. induction ND as [|a r NI _ IH]; intros v Hv; [cbn in Hv; lia|].
  cbn [index_of length] in *.
  destruct (N.to_nat v) as [|n] eqn:En; cbn [nth].
  - rewrite N.eqb_refl. f_equal. lia.
  - destruct (N.eqb_spec a (nth n r 0)) as [E|_].
    + destruct NI. rewrite E. apply nth_In. lia.
    + specialize (IH (N.of_nat n)). rewrite Nat2N.id in IH.
      rewrite IH by lia. f_equal. lia.
Qed.

Record codec := mkCodec {
  bitw : nat;            (* bits per symbol *)
  alphabet : list N;     (* 2^bitw distinct characters *)
  ctb : bool             (* check trailing bits *)
}.

(* data-encoding has 1 to 6 bits per symbol.  The proofs use [bitw <= 8]: the fewer than [bitw]
   bits that follow the last whole byte then hold no further byte, so the length of an encoding
   determines the number of bytes ([decode_len_Ok]). *)
Definition codec_ok (c : codec) : bool :=
  (1 <=? bitw c)%nat && (bitw c <=? 7)%nat &&
  (length (alphabet c) =? 2 ^ bitw c)%nat && nodupb (alphabet c).

(* ceil (8 * nbytes / k) symbols *)
Definition encode_len (k nbytes : nat) : nat := ((nbytes * 8 + k - 1) / k)%nat.

Definition encode_vals (k : nat) (bs : bytes) : list N :=
  let B := bytes_to_bits bs in
  let n := encode_len k (length bs) in
  map val_of (chunks k (B ++ repeat false (k * n - length B))).

Definition encode (c : codec) (bs : bytes) : bytes :=
  map (sym_of (alphabet c)) (encode_vals (bitw c) bs).

Lemma sym_in_alphabet al v : In (sym_of al v) (0 :: al).
Proof.
  unfold sym_of. destruct (Nat.lt_ge_cases (N.to_nat v) (length al)) as [L|L].
  - right. now apply nth_In.
  - left. symmetry. now apply nth_overflow.
Qed.

(* a symbol of an encoding is 0 or in the alphabet, so a test on those few values settles a
   property of all encodings (no delimiter among them; left alone by a case mapping) *)
Lemma encode_forall (P : N -> bool) c bs :
  forallb P (0 :: alphabet c) = true -> Forall (fun ch => P ch = true) (encode c bs).
Proof.
  intros H. apply Forall_map, Forall_forall. intros v _.
  apply (proj1 (forallb_forall _ _) H), sym_in_alphabet.
Qed.

Lemma encode_map_fixed (f : N -> N) c bs :
  forallb (fun ch => f ch =? ch) (0 :: alphabet c) = true -> map f (encode c bs) = encode c bs.
Proof.
  intros H. unfold encode. rewrite map_map. apply map_ext. intros v.
  apply N.eqb_eq, (proj1 (forallb_forall _ _) H), sym_in_alphabet.
Qed.

Fixpoint map_opt {A B} (f : A -> option B) (l : list A) : option (list B) :=
  match l with
  | [] => Some []
  | a :: r => match f a with
              | None => None
              | Some b => match map_opt f r with Some r' => Some (b :: r') | None => None end
              end
  end.

(* data-encoding's decode_len without padding or ignored characters: Err 1 (Length) if the
   input length leaves >= k trailing bits *)
Definition decode_len (c : codec) (n : nat) : res nat :=
  if (bitw c <=? (bitw c * n) mod 8)%nat then Err 1 else Ok ((bitw c * n) / 8)%nat.

(* decode: Err 1 = Length, Err 2 = Symbol, Err 3 = Trailing (non-zero trailing bits). *)
Definition decode (c : codec) (s : bytes) : res bytes :=
  match decode_len c (length s) with
  | Ok m =>
      match map_opt (fun ch => index_of ch (alphabet c)) s with
      | None => Err 2
      | Some vs =>
          let bits := concat (map (bits_of (bitw c)) vs) in
          if negb (ctb c) || forallb negb (skipn (m * 8) bits)
          then Ok (bits_to_bytes (firstn (m * 8) bits))
          else Err 3
      end
  | Err e => Err e
  | Panic => Panic
  end.

(* Encoding::decode_mut(input, output): panics unless
   Ok(output.len()) == decode_len(input.len()). *)
Definition decode_mut (c : codec) (s : bytes) (outlen : nat) : res bytes :=
  match decode_len c (length s) with
  | Ok m => if (m =? outlen)%nat then decode c s else Panic
  | _ => Panic
  end.

Lemma decode_len_total c n : decode_len c n <> Panic.
Proof. unfold decode_len. destruct (_ <=? _)%nat; discriminate. Qed.

Lemma map_opt_map {A B} (f : A -> option B) (g : B -> A) (l : list B) :
  (forall b, In b l -> f (g b) = Some b) -> map_opt f (map g l) = Some l.
Proof.
  induction l as [|b l IH]; intros H; cbn [map map_opt]; [reflexivity|].
  rewrite H by (now left). rewrite IH; auto. intros; apply H; now right.
Qed.

(* what a successful [map_opt] says, element by element; the three lemmas below read it *)
Lemma map_opt_Forall2 {A B} (f : A -> option B) l r :
  map_opt f l = Some r -> Forall2 (fun a b => f a = Some b) l r.
Proof.
  revert r; induction l as [|a l IH]; intros r; cbn [map_opt].
  - intros [= <-]. constructor.
  - destruct (f a) as [b|] eqn:E; [|discriminate].
    destruct (map_opt f l) as [r'|]; [|discriminate].
    intros [= <-]. constructor; [exact E|now apply IH].
Qed.

Lemma map_opt_length {A B} (f : A -> option B) l r : map_opt f l = Some r -> length r = length l.
Proof. intros E. apply map_opt_Forall2 in E. induction E; cbn; congruence. Qed.

Lemma map_opt_Forall {A B} (f : A -> option B) (P : B -> Prop) (l : list A) r :
  (forall a b, f a = Some b -> P b) -> map_opt f l = Some r -> Forall P r.
Proof. intros H E. apply map_opt_Forall2 in E. induction E; constructor; eauto. Qed.

Lemma map_opt_Some {A B} (f : A -> option B) (g : B -> A) (P : B -> Prop) (l : list A) r :
  (forall a b, f a = Some b -> P b /\ g b = a) ->
  map_opt f l = Some r -> Forall P r /\ map g r = l.
Proof.
  intros H E. apply map_opt_Forall2 in E.
  induction E as [|a b l r E _ [IHP <-]]; [now split|].
  destruct (H a b E) as [Pb <-]. split; [constructor; assumption|reflexivity].
Qed.

Lemma forallb_negb_repeat l : forallb negb l = true -> l = repeat false (length l).
Proof. apply forallb_eq_repeat. now intros []. Qed.

Lemma forallb_negb_zeros n : forallb negb (repeat false n) = true.
Proof. now apply forallb_repeat. Qed.

Section Codec.
Variable c : codec.
Hypothesis Hc : codec_ok c = true.
Let k := bitw c.

Lemma codec_parts :
  (1 <= k <= 7)%nat /\ length (alphabet c) = (2 ^ k)%nat /\ nodupb (alphabet c) = true.
Proof.
  pose proof Hc as H. unfold codec_ok in H. fold k in H.
  apply andb_prop in H as (H & ND). apply andb_prop in H as (H & L).
  apply andb_prop in H as (K1 & K7).
  apply Nat.leb_le in K1, K7. apply Nat.eqb_eq in L. auto.
Qed.

Lemma codec_k : (1 <= k <= 7)%nat.
Proof. apply codec_parts. Qed.

Lemma alphabet_range v : (N.to_nat v < length (alphabet c))%nat <-> v < 2 ^ N.of_nat k.
Proof.
  destruct codec_parts as (_ & -> & _). pose proof (Nat2N.inj_pow 2 k) as E. lia.
Qed.

Lemma val_sym v : v < 2 ^ N.of_nat k -> index_of (sym_of (alphabet c) v) (alphabet c) = Some v.
Proof. intros H. apply index_of_complete; [apply codec_parts|]. now apply alphabet_range. Qed.

Lemma sym_val ch v : index_of ch (alphabet c) = Some v ->
  v < 2 ^ N.of_nat k /\ sym_of (alphabet c) v = ch.
Proof. intros H. apply index_of_sound in H as (L & S). split; [now apply alphabet_range|exact S]. Qed.

(* n symbols hold m bytes when m*8 <= k*n < m*8 + k: what the encoder produces, and the only
   lengths the decoder accepts *)
Lemma encode_len_spec m : (m * 8 <= k * encode_len k m < m * 8 + k)%nat.
Proof.
  pose proof codec_k as Hk. unfold encode_len.
  pose proof (Nat.div_mod_eq (m * 8 + k - 1) k) as E.
  pose proof (Nat.mod_upper_bound (m * 8 + k - 1) k) as U.
  revert E U. generalize ((m * 8 + k - 1) / k)%nat ((m * 8 + k - 1) mod k)%nat. lia.
Qed.

Lemma encode_len_unique m n t : (k * n = m * 8 + t)%nat -> (t < k)%nat -> encode_len k m = n.
Proof.
  pose proof codec_k as Hk. intros E T. unfold encode_len.
  symmetry. apply (Nat.div_unique _ _ _ (k - S t)%nat); lia.
Qed.

Lemma decode_len_Ok n m : decode_len c n = Ok m <-> (m * 8 <= k * n < m * 8 + k)%nat.
Proof.
  pose proof codec_k as Hk. unfold decode_len. fold k.
  pose proof (Nat.div_mod_eq (k * n) 8) as E.
  pose proof (Nat.mod_upper_bound (k * n) 8 ltac:(discriminate)) as U.
  revert E U. generalize (k * n)%nat ((k * n) / 8)%nat ((k * n) mod 8)%nat. intros x q r E U.
  destruct (Nat.leb_spec k r); split; try discriminate; [lia| |].
  - intros [= <-]. lia.
  - intros B. f_equal. lia.
Qed.

Lemma encode_vals_spec bs : let n := encode_len k (length bs) in
  concat (map (bits_of k) (encode_vals k bs)) =
    bytes_to_bits bs ++ repeat false (k * n - length (bytes_to_bits bs)) /\
  length (encode_vals k bs) = n /\
  Forall (fun v => v < 2 ^ N.of_nat k) (encode_vals k bs).
Proof.
  pose proof codec_k as Hk. pose proof (encode_len_spec (length bs)) as S.
  apply concat_bits_of_vals; [lia|].
  rewrite app_length, repeat_length, bytes_to_bits_length. lia.
Qed.

Theorem encode_length bs : length (encode c bs) = encode_len (bitw c) (length bs).
Proof. unfold encode. rewrite map_length. apply encode_vals_spec. Qed.

Theorem decode_encode bs : bytes_ok bs = true -> decode c (encode c bs) = Ok bs.
Proof.
  intros Hbs. destruct (encode_vals_spec bs) as (Bits & _ & Bound). cbv zeta in Bits.
  unfold decode. rewrite encode_length. fold k.
  rewrite (proj2 (decode_len_Ok _ _) (encode_len_spec (length bs))).
  unfold encode. fold k. rewrite map_opt_map.
  2:{ intros v Hv. rewrite Forall_forall in Bound. now apply val_sym, Bound. }
  rewrite Bits, <- (bytes_to_bits_length bs).
  rewrite firstn_app_exact, skipn_app_exact, forallb_negb_zeros, orb_true_r.
  now rewrite bits_to_bytes_to_bits.
Qed.

(* the symbol values of s spell the bits of the result, then fewer than k trailing bits, zero
   if checked *)
Lemma decode_Ok s bs : decode c s = Ok bs -> exists vs z,
  map (sym_of (alphabet c)) vs = s /\ Forall (fun v => v < 2 ^ N.of_nat k) vs /\
  concat (map (bits_of k) vs) = bytes_to_bits bs ++ z /\
  (k * length vs = length bs * 8 + length z)%nat /\ (length z < k)%nat /\
  bytes_ok bs = true /\ (ctb c = true -> z = repeat false (length z)).
Proof.
  unfold decode. fold k.
  destruct (decode_len c (length s)) as [m| |] eqn:EL; try discriminate.
  destruct (map_opt _ s) as [vs|] eqn:EV; [|discriminate].
  eapply map_opt_Some in EV as (Bound & ES); [|apply sym_val].
  subst s. rewrite map_length in EL. apply decode_len_Ok in EL.
  pose proof (concat_bits_length k vs) as Lbits.
  set (bits := concat (map (bits_of k) vs)) in *.
  destruct (negb (ctb c) || forallb negb (skipn (m * 8) bits)) eqn:ET; [|discriminate].
  intros [= <-]. exists vs, (skipn (m * 8) bits).
  destruct (bytes_to_bits_to_bytes (firstn (m * 8) bits) m) as (-> & -> & OK).
  { rewrite firstn_length. lia. }
  rewrite firstn_skipn, skipn_length, Lbits. repeat split; auto; [clear -EL; lia|clear -EL; lia|].
  intros C. rewrite C in ET. rewrite <- Lbits, <- skipn_length. now apply forallb_negb_repeat.
Qed.

(* Canonicity: only the encoder's output decodes (needs the trailing-bit check). *)
Theorem encode_decode s bs : ctb c = true -> decode c s = Ok bs -> encode c bs = s.
Proof.
  intros Hctb D. pose proof codec_k as Hk.
  destruct (decode_Ok s bs D) as (vs & z & <- & Bound & Bits & L & Hz & _ & Zero).
  unfold encode. f_equal. fold k.
  rewrite <- (vals_of_concat_bits k vs), Bits, (Zero Hctb) by (auto; lia).
  unfold encode_vals. cbv zeta.
  rewrite (encode_len_unique _ _ _ L Hz), bytes_to_bits_length.
  do 4 f_equal. lia.
Qed.

Theorem decode_length s bs : decode c s = Ok bs ->
  (length bs * 8 <= k * length s /\ k * length s < length bs * 8 + k)%nat /\ bytes_ok bs = true.
Proof.
  intros D. destruct (decode_Ok s bs D) as (vs & z & <- & _ & _ & L & Hz & OK & _).
  rewrite map_length. split; [lia|exact OK].
Qed.

(* [Hc] is not used: like [decode_len_total], this holds of every codec *)
Theorem decode_total s : decode c s <> Panic.
Proof.
  unfold decode, decode_len.
  destruct (bitw c <=? _)%nat; [discriminate|].
  destruct (map_opt _ s); [|discriminate].
  destruct (negb (ctb c) || _); discriminate.
Qed.

End Codec.

Definition HEXLOWER : codec := mkCodec 4 (str_bytes "0123456789abcdef") true.
Definition BASE32_NOPAD : codec := mkCodec 5 (str_bytes "ABCDEFGHIJKLMNOPQRSTUVWXYZ234567") true.
Definition Z_BASE_32 : codec := mkCodec 5 (str_bytes "ybndrfg8ejkmcpqxot1uwisza345h769") true.

Lemma HEXLOWER_ok : codec_ok HEXLOWER = true. Proof. reflexivity. Qed.
Lemma BASE32_NOPAD_ok : codec_ok BASE32_NOPAD = true. Proof. reflexivity. Qed.
Lemma Z_BASE_32_ok : codec_ok Z_BASE_32 = true. Proof. reflexivity. Qed.

(* str::to_ascii_uppercase and to_ascii_lowercase on the UTF-8 bytes: only a-z, A-Z change. *)
Definition to_upper (ch : N) : N := if (97 <=? ch) && (ch <=? 122) then ch - 32 else ch.
Definition to_lower (ch : N) : N := if (65 <=? ch) && (ch <=? 90) then ch + 32 else ch.
Definition ascii_upper (s : bytes) : bytes := map to_upper s.
Definition ascii_lower (s : bytes) : bytes := map to_lower s.

Lemma ascii_upper_length s : length (ascii_upper s) = length s.
Proof. apply map_length. Qed.

Lemma to_upper_idem ch : to_upper (to_upper ch) = to_upper ch.
Proof.
  unfold to_upper. destruct ((97 <=? ch) && (ch <=? 122)) eqn:E; [|now rewrite E].
  destruct (N.leb_spec 97 (ch - 32)); [lia|reflexivity].
Qed.

Lemma ascii_upper_idem s : ascii_upper (ascii_upper s) = ascii_upper s.
Proof. unfold ascii_upper. rewrite map_map. apply map_ext. apply to_upper_idem. Qed.

Lemma to_upper_lower ch : to_upper (to_lower ch) = to_upper ch.
Proof.
  unfold to_upper, to_lower. destruct ((65 <=? ch) && (ch <=? 90)) eqn:A; [|reflexivity].
  destruct (N.leb_spec 97 ch); [lia|]. cbn [andb].
  destruct ((97 <=? ch + 32) && (ch + 32 <=? 122)) eqn:B; lia.
Qed.

Lemma ascii_upper_lower s : ascii_upper (ascii_lower s) = ascii_upper s.
Proof. unfold ascii_upper, ascii_lower. rewrite map_map. apply map_ext, to_upper_lower. Qed.

Lemma base32_encode_upper bs : ascii_upper (encode BASE32_NOPAD bs) = encode BASE32_NOPAD bs.
Proof. now apply encode_map_fixed. Qed.
