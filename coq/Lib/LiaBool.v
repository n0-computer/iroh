(* lia over the boolean tests of the models ([a <=? b], [x =? y], [andb] ...).  ZifyBool also
   installs a hook that splits on every boolean in the context before lia runs; no proof here
   needs the split and it slows every lia call, so the hook is switched off.  Import this file
   after any other that mentions ZifyBool. *)
From Coq Require Export Lia ZifyBool.
Ltac Zify.zify_post_hook ::= idtac.
