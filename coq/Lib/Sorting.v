(* Stable insertion sort.  Rust's `slice::sort_by_key` / `sort_by` are stable, so for a total
   preorder their result is uniquely determined; `sort leb` computes that result.  After the sort
   itself: what a sorted or duplicate-free list says about its two parts at a cut ([firstn],
   [skipn]).  No axioms.
   A trap: in every file that imports this one the name [le] is the [le] below, not the standard
   one of [nat] (the notation [<=] is not touched); a file that wants a lemma or two requires this
   one without importing it and writes [Sorting.]. *)
From Coq Require Import List Permutation Sorted BinNat.
Import ListNotations.

Section StableSort.
  Context {A : Type}.
  Variable leb : A -> A -> bool.

  (* insert x in front of the first element y with x <= y: x stays in front of
     every element equivalent to it (x is the earlier element of the input) *)
  Fixpoint insert (x : A) (l : list A) : list A :=
    match l with
    | [] => [x]
    | y :: r => if leb x y then x :: y :: r else y :: insert x r
    end.

  Fixpoint sort (l : list A) : list A :=
    match l with
    | [] => []
    | x :: r => insert x (sort r)
    end.

  Lemma insert_perm x l : Permutation (insert x l) (x :: l).
  Proof.
    induction l as [|y r IH]; cbn [insert]; [reflexivity|].
    destruct (leb x y); [reflexivity|].
    rewrite IH. apply perm_swap.
  Qed.

  Lemma sort_perm l : Permutation (sort l) l.
  Proof.
    induction l as [|x r IH]; cbn [sort]; [reflexivity|].
    rewrite insert_perm. now constructor.
  Qed.

  Lemma sort_length l : length (sort l) = length l.
  Proof. apply Permutation_length, sort_perm. Qed.

  Lemma sort_in x l : In x (sort l) <-> In x l.
  Proof.
    split; apply Permutation_in; [apply sort_perm | apply Permutation_sym, sort_perm].
  Qed.

  Lemma sort_map_perm {B} (f : A -> B) l : Permutation (map f (sort l)) (map f l).
  Proof. apply Permutation_map, sort_perm. Qed.

  Lemma sort_NoDup_map {B} (f : A -> B) l : NoDup (map f l) -> NoDup (map f (sort l)).
  Proof.
    intros H. eapply Permutation_NoDup; [|exact H]. apply Permutation_sym, sort_map_perm.
  Qed.

  Hypothesis leb_total : forall a b, leb a b = true \/ leb b a = true.
  Hypothesis leb_trans : forall a b c, leb a b = true -> leb b c = true -> leb a c = true.

  Definition le (a b : A) : Prop := leb a b = true.

  Lemma insert_sorted x l : StronglySorted le l -> StronglySorted le (insert x l).
  Proof.
    induction 1 as [|y r Hr IH Hy]; cbn [insert].
    - repeat constructor.
    - destruct (leb x y) eqn:E.
      + constructor; [constructor; assumption|].
        constructor; [exact E|].
        rewrite Forall_forall in *. intros z Hz. eapply leb_trans; [exact E|]. now apply Hy.
      + constructor; [exact IH|].
        rewrite Forall_forall in *. intros z Hz.
        apply (Permutation_in _ (insert_perm x r)) in Hz. destruct Hz as [<-|Hz].
        * destruct (leb_total x y) as [H|H]; [congruence|exact H].
        * now apply Hy.
  Qed.

  Lemma sort_sorted l : StronglySorted le (sort l).
  Proof.
    induction l as [|x r IH]; cbn [sort]; [constructor|]. now apply insert_sorted.
  Qed.

  Lemma sort_sorted_rel (R : A -> A -> Prop) l :
    (forall a b, leb a b = true -> R a b) -> StronglySorted R (sort l).
  Proof.
    intros HR. induction (sort_sorted l) as [|x r _ IH Hx]; constructor; [exact IH|].
    eapply Forall_impl; [|exact Hx]. intros y. apply HR.
  Qed.
End StableSort.

Lemma insert_map {A B} (k : A -> B) (leb : B -> B -> bool) x l :
  insert leb (k x) (map k l) = map k (insert (fun a b => leb (k a) (k b)) x l).
Proof.
  induction l as [|y l IH]; cbn [map insert]; [reflexivity|].
  destruct (leb (k x) (k y)); [reflexivity|]. cbn [map]. now rewrite IH.
Qed.

Lemma sort_map {A B} (k : A -> B) (leb : B -> B -> bool) l :
  sort leb (map k l) = map k (sort (fun a b => leb (k a) (k b)) l).
Proof. induction l as [|x l IH]; cbn [map sort]; [reflexivity|]. now rewrite IH, insert_map. Qed.

Lemma sort_desc_sorted {A} (k : A -> N) l :
  StronglySorted (fun a b => k b <= k a)%N (sort (fun a b => k b <=? k a)%N l).
Proof.
  apply sort_sorted_rel.
  - intros a b. destruct (N.le_ge_cases (k b) (k a)) as [H|H]; [left|right]; apply N.leb_le, H.
  - intros a b c H1%N.leb_le H2%N.leb_le. apply N.leb_le. exact (N.le_trans _ _ _ H2 H1).
  - intros a b. apply N.leb_le.
Qed.

(* Stability: a class P of mutually <= elements keeps its input order. *)
Section Stability.
  Context {A : Type}.
  Variable leb : A -> A -> bool.
  Variable P : A -> bool.
  Hypothesis class_le : forall x y, P x = true -> P y = true -> leb x y = true.

  Lemma insert_filter_in x l : P x = true -> filter P (insert leb x l) = x :: filter P l.
  Proof.
    intros Hx. induction l as [|y r IH]; cbn [insert filter].
    - now rewrite Hx.
    - destruct (leb x y) eqn:E.
      + cbn [filter]. now rewrite Hx.
      + cbn [filter]. destruct (P y) eqn:Py.
        * rewrite (class_le x y Hx Py) in E. discriminate.
        * exact IH.
  Qed.

  Lemma insert_filter_out x l : P x = false -> filter P (insert leb x l) = filter P l.
  Proof.
    intros Hx. induction l as [|y r IH]; cbn [insert filter].
    - now rewrite Hx.
    - destruct (leb x y); cbn [filter].
      + now rewrite Hx.
      + now rewrite IH.
  Qed.

  Theorem sort_stable l : filter P (sort leb l) = filter P l.
  Proof.
    induction l as [|x r IH]; cbn [sort filter]; [reflexivity|].
    destruct (P x) eqn:Px.
    - rewrite insert_filter_in by exact Px. now rewrite IH.
    - rewrite insert_filter_out by exact Px. exact IH.
  Qed.
End Stability.

Lemma In_firstn_incl {A} n (l : list A) x : In x (firstn n l) -> In x l.
Proof. intros H. rewrite <- (firstn_skipn n l). apply in_or_app. now left. Qed.

Lemma In_skipn_incl' {A} n (l : list A) x : In x (skipn n l) -> In x l.
Proof. intros H. rewrite <- (firstn_skipn n l). apply in_or_app. now right. Qed.

Section Split.
  Context {A : Type}.
  Variable R : A -> A -> Prop.

  Lemma sorted_firstn_skipn n l a b :
    StronglySorted R l -> In a (firstn n l) -> In b (skipn n l) -> R a b.
  Proof.
    intros H. revert n. induction H as [|x r Hr IH Hx]; intros n Ha Hb.
    - destruct n; cbn in Ha; contradiction.
    - destruct n as [|n]; cbn [firstn skipn] in *; [contradiction|].
      destruct Ha as [<-|Ha].
      + rewrite Forall_forall in Hx. apply Hx. eapply In_skipn_incl'; exact Hb.
      + now apply (IH n).
  Qed.
End Split.

Lemma NoDup_firstn_skipn_disjoint {A} n (l : list A) x :
  NoDup l -> In x (firstn n l) -> In x (skipn n l) -> False.
Proof.
  intros H Ha Hb. apply in_split in Hb as (v1 & v2 & E).
  rewrite <- (firstn_skipn n l), E, app_assoc in H.
  apply NoDup_remove_2 in H. apply H. rewrite !in_app_iff. auto.
Qed.
