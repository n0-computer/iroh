(* Facts about lists that do not depend on any model: [len], [firstn]/[skipn], [forallb], [filter],
   [NoDup], what a permutation keeps; one value per thread in a list ([set_nth]); the lemmas that read a boolean test as a
   proposition connective by connective (the largest part); the tests [nodupb] and [lex_le] with their
   readings. *)
From V Require Import Lib.Base.
From Coq Require Import Sorted Permutation.
Open Scope N_scope.

Lemma len_nil {A} : len (@nil A) = 0.
Proof. reflexivity. Qed.

Lemma len_cons {A} (a : A) l : len (a :: l) = len l + 1.
Proof. unfold len. cbn [length]. lia. Qed.

Lemma len_app {A} (u v : list A) : len (u ++ v) = len u + len v.
Proof. unfold len. rewrite app_length. lia. Qed.

Lemma len_map {A B} (f : A -> B) l : len (map f l) = len l.
Proof. unfold len. now rewrite map_length. Qed.

Lemma len_skipn {A} n (l : list A) : len (skipn n l) = len l - N.of_nat n.
Proof. unfold len. rewrite skipn_length. lia. Qed.

Lemma len_firstn {A} n (l : list A) : len (firstn n l) = N.min (N.of_nat n) (len l).
Proof. unfold len. rewrite firstn_length. lia. Qed.

Lemma firstn_app_length {A} (a b : list A) n : length a = n -> firstn n (a ++ b) = a.
Proof. intros <-. rewrite firstn_app, Nat.sub_diag, firstn_all. apply app_nil_r. Qed.

Lemma skipn_app_length {A} (a b : list A) n : length a = n -> skipn n (a ++ b) = b.
Proof. intros <-. now rewrite skipn_app, Nat.sub_diag, skipn_all. Qed.

Lemma skipn_add {A} a b (l : list A) : skipn (a + b) l = skipn b (skipn a l).
Proof.
  revert l; induction a as [|a IH]; intros l; [reflexivity|].
  destruct l; cbn; [now rewrite skipn_nil|apply IH].
Qed.

Lemma Forall_firstn {A} (P : A -> Prop) n l : Forall P l -> Forall P (firstn n l).
Proof. intros H. revert n. induction H as [|a l Ha _ IH]; intros [|n]; cbn [firstn]; constructor; auto. Qed.

Lemma forallb_firstn {A} (f : A -> bool) n l : forallb f l = true -> forallb f (firstn n l) = true.
Proof. rewrite !forallb_forall, <- !Forall_forall. apply Forall_firstn. Qed.

Lemma forallb_ext {A} (f g : A -> bool) l :
  (forall a, f a = g a) -> forallb f l = forallb g l.
Proof. intros H; induction l as [|a l IH]; cbn; [reflexivity|]. now rewrite H, IH. Qed.

Lemma forallb_false {A} (f : A -> bool) l :
  forallb f l = false -> exists x, In x l /\ f x = false.
Proof.
  induction l as [|a l IH]; cbn; [discriminate|].
  destruct (f a) eqn:E; cbn; [|now eauto].
  intros H. destruct (IH H) as (x & Hx & Fx). eauto.
Qed.

Lemma forallb_repeat {A} (f : A -> bool) x n : f x = true -> forallb f (repeat x n) = true.
Proof. intros H. apply forallb_forall. intros y Hy. now rewrite (repeat_spec _ _ _ Hy). Qed.

Lemma forallb_eq_repeat {A} (f : A -> bool) x l :
  (forall y, f y = true -> y = x) -> forallb f l = true -> l = repeat x (length l).
Proof.
  intros H F. apply Forall_eq_repeat, Forall_forall. intros y Hy. symmetry.
  exact (H y (proj1 (forallb_forall f l) F y Hy)).
Qed.

Lemma filter_all {A} (f : A -> bool) l : forallb f l = true -> filter f l = l.
Proof.
  induction l as [|a l IH]; cbn; [reflexivity|].
  intros H. apply andb_prop in H as [-> H]. now rewrite IH.
Qed.

Lemma filter_none {A} (f : A -> bool) l : (forall x, In x l -> f x = false) -> filter f l = [].
Proof.
  induction l as [|a l IH]; cbn; [reflexivity|].
  intros H. rewrite (H a) by auto. auto.
Qed.

Lemma filter_length_le {A} (f : A -> bool) l : (length (filter f l) <= length l)%nat.
Proof. induction l as [|a l IH]; cbn; [lia|]. destruct (f a); cbn; lia. Qed.

Lemma filter_length_all {A} (f : A -> bool) l : length (filter f l) = length l -> forallb f l = true.
Proof.
  induction l as [|a l IH]; cbn; [reflexivity|].
  pose proof (filter_length_le f l). destruct (f a); cbn; intros E; [apply IH; lia|lia].
Qed.

Lemma filter_length_map {A B} (g : A -> B) (p : B -> bool) l :
  length (filter p (map g l)) = length (filter (fun x => p (g x)) l).
Proof. induction l as [|x l IH]; cbn; [reflexivity|]. destruct (p (g x)); cbn; congruence. Qed.

Lemma filter_length_pos {A} (p : A -> bool) l :
  (0 < length (filter p l))%nat -> exists x, In x l /\ p x = true.
Proof.
  destruct (filter p l) as [|x r] eqn:E; cbn; [lia|]. intros _. exists x.
  apply filter_In. rewrite E. now left.
Qed.

Lemma filter_filter_and {A} (f g : A -> bool) l : filter g (filter f l) = filter (fun x => f x && g x) l.
Proof.
  induction l as [|a l IH]; cbn; [reflexivity|].
  destruct (f a) eqn:E; cbn; [destruct (g a); now rewrite IH|exact IH].
Qed.

Lemma filter_swap {A} (f g : A -> bool) l : filter f (filter g l) = filter g (filter f l).
Proof. rewrite !filter_filter_and. apply filter_ext. intros x. apply andb_comm. Qed.

Lemma filter_filter_imp {A} (p q : A -> bool) l :
  (forall x, p x = true -> q x = true) -> filter p (filter q l) = filter p l.
Proof.
  intros H. rewrite filter_filter_and. apply filter_ext. intros x.
  destruct (p x) eqn:P; [now rewrite (H x P)|apply andb_false_r].
Qed.

Lemma combine_map_map {A B C} (f : A -> B) (g : A -> C) l :
  combine (map f l) (map g l) = map (fun x => (f x, g x)) l.
Proof. induction l as [|a l IH]; cbn; [reflexivity|now rewrite IH]. Qed.

Lemma combine_map_r {A B} (g : A -> B) l : combine l (map g l) = map (fun x => (x, g x)) l.
Proof. rewrite <- (map_id l) at 1. apply combine_map_map. Qed.

Lemma NoDup_app_iff {A} (u v : list A) :
  NoDup (u ++ v) <-> NoDup u /\ NoDup v /\ (forall x, In x u -> In x v -> False).
Proof.
  induction u as [|y u IH]; cbn [app].
  - split; [intros H; repeat split; [constructor|exact H|contradiction]|tauto].
  - rewrite !NoDup_cons_iff, IH, in_app_iff. split.
    + intros (Hy & Nu & Nv & D). repeat split; auto.
      intros x [<-|Hx] Hv; [tauto|exact (D x Hx Hv)].
    + intros ((Hy & Nu) & Nv & D). repeat split; auto.
      * intros [K|K]; [exact (Hy K)|exact (D y (or_introl eq_refl) K)].
      * intros x Hx. apply D. now right.
Qed.

Lemma NoDup_snoc {A} (l : list A) x : NoDup l -> ~ In x l -> NoDup (l ++ [x]).
Proof.
  intros Hl Hx. apply NoDup_app_iff. split; [exact Hl|]. split.
  - constructor; [intros []|constructor].
  - intros y Hy [<-|[]]. exact (Hx Hy).
Qed.

Lemma sorted_snoc l n :
  StronglySorted N.lt l -> (forall x, In x l -> x < n) -> StronglySorted N.lt (l ++ [n]).
Proof.
  induction 1 as [|a l Hl IH Ha]; cbn; intros Hn.
  - repeat constructor.
  - constructor; [auto|]. apply Forall_app. split; [exact Ha|]. constructor; auto.
Qed.

Lemma sorted_NoDup l : StronglySorted N.lt l -> NoDup l.
Proof.
  induction 1 as [|a l Hl IH Ha]; constructor; [|exact IH].
  intros Hin. rewrite Forall_forall in Ha. specialize (Ha _ Hin). lia.
Qed.

Lemma sorted_nth_lt l : StronglySorted N.lt l ->
  forall i j a b, nth_error l i = Some a -> nth_error l j = Some b -> (i < j)%nat -> a < b.
Proof.
  induction 1 as [|x l Hs IH Hx]; intros i j a b Hi Hj Hij; [destruct i; discriminate|].
  destruct j as [|j]; [lia|]. destruct i as [|i]; cbn in *.
  - injection Hi as <-. rewrite Forall_forall in Hx. apply Hx. eapply nth_error_In; eauto.
  - eapply IH; eauto. lia.
Qed.

Lemma StronglySorted_filter {A} (R : A -> A -> Prop) p l :
  StronglySorted R l -> StronglySorted R (filter p l).
Proof.
  induction 1 as [|a l _ IH Ha]; cbn [filter]; [constructor|]. destruct (p a); [|exact IH].
  constructor; [exact IH|]. exact (incl_Forall (incl_filter p l) Ha).
Qed.

Lemma Permutation_filter {A} (f : A -> bool) l l' :
  Permutation l l' -> Permutation (filter f l) (filter f l').
Proof.
  induction 1 as [|x l l' _ IH|x y l|l l' l'' _ IH1 _ IH2]; cbn [filter].
  - constructor.
  - destruct (f x); [now constructor|exact IH].
  - destruct (f x), (f y); try reflexivity. apply perm_swap.
  - now transitivity (filter f l').
Qed.

Lemma forallb_perm {A} (p : A -> bool) l l' : Permutation l l' -> forallb p l = forallb p l'.
Proof.
  induction 1 as [|x l l' _ IH|x y l|l l' l'' _ IH1 _ IH2]; cbn [forallb].
  - reflexivity.
  - now rewrite IH.
  - destruct (p x), (p y); reflexivity.
  - congruence.
Qed.

(* One value per thread, thread t at index t.  No model imports this file: the models C26 and C30
   define this update themselves under the name [upd], C41 and C43 under the name [set_nth].  The
   lemmas here apply to theirs by conversion, so a change to one of the copies breaks proofs in the
   files of the other properties.  ([upd] in other models is a function or table update.) *)
Fixpoint set_nth {A} (n : nat) (a : A) (l : list A) : list A :=
  match l, n with
  | [], _ => []
  | _ :: r, O => a :: r
  | b :: r, S n' => b :: set_nth n' a r
  end.

Lemma nth_error_set_nth {A} n m (a b : A) l :
  nth_error (set_nth n a l) m = Some b -> (m = n /\ b = a) \/ (m <> n /\ nth_error l m = Some b).
Proof.
  revert n m; induction l as [|c l IH]; intros [|n] [|m] H; cbn in H; try discriminate.
  - left. now injection H as <-.
  - right. now split.
  - right. now split.
  - destruct (IH n m H) as [[-> ->]|[Hne H']]; [now left|right]. split; [congruence|exact H'].
Qed.

Lemma nth_error_set_nth_same {A} n (a b : A) l :
  nth_error l n = Some b -> nth_error (set_nth n a l) n = Some a.
Proof. revert n; induction l as [|c l IH]; intros [|n] H; cbn in *; try discriminate; auto. Qed.

Lemma nth_error_set_nth_other {A} n m (a : A) l :
  m <> n -> nth_error (set_nth n a l) m = nth_error l m.
Proof. revert n m; induction l as [|c l IH]; intros [|n] [|m] H; cbn; auto; congruence. Qed.

Lemma nth_set_nth {A} (L : list A) : forall l l' x d,
  nth l' (set_nth l x L) d = if Nat.eqb l' l && Nat.ltb l (length L) then x else nth l' L d.
Proof.
  induction L as [|a L IH]; intros l l' x d.
  - destruct l, l'; cbn; rewrite ?andb_false_r; reflexivity.
  - destruct l as [|l], l' as [|l']; cbn [set_nth nth Nat.eqb andb length]; try reflexivity.
    rewrite IH. reflexivity.
Qed.

Lemma set_nth_length {A} (L : list A) : forall l x, length (set_nth l x L) = length L.
Proof. induction L as [|a L IH]; intros [|l] x; cbn; auto. Qed.

(* every thread starts at the same value: [pcs (init prog)] of the models C26 and C30 is
   [map (fun _ => Idle) prog] by conversion *)
Lemma nth_error_map_const {A B} (b c : B) (l : list A) n :
  nth_error (map (fun _ => b) l) n = Some c -> c = b /\ exists a, nth_error l n = Some a.
Proof.
  rewrite nth_error_map. destruct (nth_error l n) as [a|]; cbn; [|discriminate].
  intros [= <-]. eauto.
Qed.

Lemma forallb_nth_iff {A} (f : A -> bool) l :
  forallb f l = true <-> forall t p, nth_error l t = Some p -> f p = true.
Proof.
  rewrite forallb_forall. split; intros H.
  - intros t p Hp. eapply H, nth_error_In, Hp.
  - intros p [t Hp]%In_nth_error. eauto.
Qed.

Lemma forallb_false_nth {A} (f : A -> bool) l :
  forallb f l = false -> exists t p, nth_error l t = Some p /\ f p = false.
Proof. intros (p & [t Hp]%In_nth_error & Hf)%forallb_false. eauto. Qed.

Lemma forallb_set_nth {A} (f : A -> bool) i x l :
  forallb f l = true -> f x = true -> forallb f (set_nth i x l) = true.
Proof.
  intros H Hx. apply forallb_nth_iff. intros t p [[_ ->]|[_ Hp]]%nth_error_set_nth; [exact Hx|].
  exact (proj1 (forallb_nth_iff f l) H t p Hp).
Qed.

(* Reading a boolean test as a proposition, one lemma per connective of the tests the monitors are
   written in: each takes readings [b = true <-> P] of the parts to a reading of the whole, so plain
   [apply] walks down the test clause by clause in the order of its definition (rewriting with the
   clauses' equivalences is setoid rewriting, several times dearer to check, and does not go under a
   binder).  First the connectives, then the quantifiers over a list, then the tests on the form of
   a subject, up to [not_panic_iff].  [eq_false_iff] reads [b = false]; [eqb_iff] is the connective
   [Bool.eqb], two tests that agree.  [andb_assoc_iff] and [impb_and] are not connectives: they
   re-nest the test the way the propositions nest ([&&] to the right like [/\], a guard [c && d] as
   two premises).  Where the proposition wanted is the mirror of the test the walk is the whole
   proof; where it is not (its quantifiers stand in front, an equation of the test is substituted),
   [eapply iff_trans; [walk|]] lets the walk build the mirror and leaves the logic that takes one to
   the other.  Two traps.  All boolean and [Prop] arguments are explicit because under
   [eapply iff_trans] the proposition is an evar: [apply] makes evars of explicit arguments it
   cannot infer and fails on implicit ones.  And Coq compiles a branch [p => f p] that follows
   other patterns on a scrutinee that is not a variable into one branch per constructor,
   [C x => f (C x)]: no lemma below has such a branch, and one that is added for a test of that form
   has to spell its branches that way, and be given [f] and [P]. *)
Lemma true_iff : true = true <-> True.
Proof. split; [intros _; exact I|reflexivity]. Qed.

Lemma false_iff : false = true <-> False.
Proof. split; [discriminate|intros []]. Qed.

Lemma andb_iff (a b : bool) (P Q : Prop) :
  (a = true <-> P) -> (b = true <-> Q) -> (a && b = true <-> P /\ Q).
Proof.
  intros [p p'] [q q']. split.
  - intros [Ha Hb]%andb_prop. exact (conj (p Ha) (q Hb)).
  - intros [HP HQ]. exact (andb_true_intro (conj (p' HP) (q' HQ))).
Qed.

Lemma andb_assoc_iff (a b c : bool) (R : Prop) :
  (a && (b && c) = true <-> R) -> (a && b && c = true <-> R).
Proof. now rewrite andb_assoc. Qed.

Lemma orb_iff (a b : bool) (P Q : Prop) :
  (a = true <-> P) -> (b = true <-> Q) -> (a || b = true <-> P \/ Q).
Proof.
  intros [p p'] [q q']. split.
  - intros [Ha|Hb]%orb_prop; [left; exact (p Ha)|right; exact (q Hb)].
  - intros [HP|HQ]; apply orb_true_intro; [left; exact (p' HP)|right; exact (q' HQ)].
Qed.

Lemma eq_false_iff (b : bool) (P : Prop) : (b = true <-> P) -> (b = false <-> ~ P).
Proof.
  intros [p p']. destruct b; split.
  - discriminate.
  - intros H. destruct (H (p eq_refl)).
  - intros _ HP. discriminate (p' HP).
  - reflexivity.
Qed.

Lemma negb_iff (b : bool) (P : Prop) : (b = true <-> P) -> (negb b = true <-> ~ P).
Proof. intros H. exact (iff_trans (negb_true_iff b) (eq_false_iff b P H)). Qed.

(* the three spellings of an implication: [if c then b else true], [negb c || b], [implb c b] *)
Lemma impb_iff (c b : bool) (P Q : Prop) :
  (c = true <-> P) -> (b = true <-> Q) -> ((if c then b else true) = true <-> (P -> Q)).
Proof.
  intros [p p'] [q q']. destruct c; split.
  - intros Hb _. exact (q Hb).
  - intros H. exact (q' (H (p eq_refl))).
  - intros _ HP. discriminate (p' HP).
  - reflexivity.
Qed.

Lemma nimpb_iff (c b : bool) (P Q : Prop) :
  (c = true <-> P) -> (b = true <-> Q) -> (negb c || b = true <-> (P -> Q)).
Proof. destruct c; exact (impb_iff _ b P Q). Qed.

Lemma implb_iff (c b : bool) (P Q : Prop) :
  (c = true <-> P) -> (b = true <-> Q) -> (implb c b = true <-> (P -> Q)).
Proof. destruct c; exact (impb_iff _ b P Q). Qed.

Lemma impb_and (c d b : bool) (R : Prop) :
  ((if c then if d then b else true else true) = true <-> R) ->
  ((if c && d then b else true) = true <-> R).
Proof. destruct c; intros H; exact H. Qed.

Lemma ite_iff (t a b : bool) (P Q : Prop) :
  (a = true <-> P) -> (b = true <-> Q) ->
  ((if t then a else b) = true <-> (t = true -> P) /\ (t = false -> Q)).
Proof.
  intros [p p'] [q q']. destruct t; split.
  - intros H. split; [intros _; exact (p H)|discriminate].
  - intros [H _]. exact (p' (H eq_refl)).
  - intros H. split; [discriminate|intros _; exact (q H)].
  - intros [_ H]. exact (q' (H eq_refl)).
Qed.

Lemma eqb_iff (b c : bool) (P : Prop) : (c = true <-> P) -> (Bool.eqb b c = true <-> (b = true <-> P)).
Proof.
  intros [p p']. destruct b, c; cbn; (split; [intros E|intros [H H']]); try discriminate E; try reflexivity.
  - split; [intros _; exact (p eq_refl)|reflexivity].
  - exact (p' (H eq_refl)).
  - exact (H' (p eq_refl)).
  - split; [discriminate|exact p'].
Qed.

Lemma forallb_iff {A} (f : A -> bool) (P : A -> Prop) l :
  (forall x, f x = true <-> P x) -> (forallb f l = true <-> forall x, In x l -> P x).
Proof.
  intros E. split.
  - intros H x Hx. exact (proj1 (E x) (proj1 (forallb_forall f l) H x Hx)).
  - intros H. apply forallb_forall. intros x Hx. exact (proj2 (E x) (H x Hx)).
Qed.

Lemma forallb_Forall_iff {A} (f : A -> bool) (P : A -> Prop) :
  (forall x, f x = true <-> P x) -> forall l, forallb f l = true <-> Forall P l.
Proof. intros E l. rewrite Forall_forall. now apply forallb_iff. Qed.

Lemma forallb_filter_iff {A} (f g : A -> bool) (P : A -> Prop) l :
  (forall x, f x = true <-> P x) ->
  (forallb f (filter g l) = true <-> forall x, In x l -> g x = true -> P x).
Proof.
  intros E. apply (iff_trans (forallb_iff f P _ E)). split.
  - intros H x Hx Hg. apply H, filter_In. exact (conj Hx Hg).
  - intros H x [Hx Hg]%filter_In. exact (H x Hx Hg).
Qed.

(* the length test has the second list first, as the monitors write it *)
Lemma forallb_combine_Forall2 {A B} (p : A * B -> bool) (Q : A -> B -> Prop) :
  (forall x y, p (x, y) = true <-> Q x y) -> forall l1 l2,
  Nat.eqb (length l2) (length l1) && forallb p (combine l1 l2) = true <-> Forall2 Q l1 l2.
Proof.
  intros Hp. induction l1 as [|x l1 IH]; intros [|y l2]; cbn [length combine forallb Nat.eqb andb].
  - split; [constructor|reflexivity].
  - split; [discriminate|intros H; inversion H].
  - split; [discriminate|intros H; inversion H].
  - split.
    + intros [Hn [Hq Hr]%andb_prop]%andb_prop. constructor; [exact (proj1 (Hp x y) Hq)|].
      apply IH. now rewrite Hn, Hr.
    + intros H. inversion H as [|? ? ? ? Hq Hr]; subst. apply IH, andb_prop in Hr as [Hn Hr].
      now rewrite Hn, (proj2 (Hp x y) Hq), Hr.
Qed.

Lemma existsb_iff {A} (f : A -> bool) (P : A -> Prop) l :
  (forall x, f x = true <-> P x) -> (existsb f l = true <-> exists x, In x l /\ P x).
Proof.
  intros E. split.
  - intros (x & Hx & H)%existsb_exists. exact (ex_intro _ x (conj Hx (proj1 (E x) H))).
  - intros (x & Hx & H). apply existsb_exists. exact (ex_intro _ x (conj Hx (proj2 (E x) H))).
Qed.

Lemma mem_iff {A} (eqb : A -> A -> bool) :
  (forall a b, eqb a b = true <-> a = b) -> forall x l, existsb (eqb x) l = true <-> In x l.
Proof.
  intros E x l. split.
  - intros (y & Hy & H)%existsb_exists. apply E in H. now subst.
  - intros H. apply existsb_exists. exact (ex_intro _ x (conj H (proj2 (E x x) eq_refl))).
Qed.

(* stated on the match, so that it reads every model's own [is_nil] *)
Lemma nil_iff {A} (l : list A) : match l with [] => true | _ :: _ => false end = true <-> l = [].
Proof. destruct l; split; [reflexivity..|discriminate|discriminate]. Qed.

(* a test that only speaks when its subject has the expected form *)
Lemma cons_iff {A} (l : list A) (f : A -> list A -> bool) (P : A -> list A -> Prop) :
  (forall a r, f a r = true <-> P a r) ->
  (match l with a :: r => f a r | [] => true end = true <-> forall a r, l = a :: r -> P a r).
Proof.
  intros E. destruct l as [|a r]; split.
  - discriminate.
  - reflexivity.
  - intros H a' r' [= <- <-]. exact (proj1 (E a r) H).
  - intros H. exact (proj2 (E a r) (H a r eq_refl)).
Qed.

Lemma some_iff {A} (o : option A) (f : A -> bool) (P : A -> Prop) :
  (forall a, f a = true <-> P a) ->
  (match o with Some a => f a | None => true end = true <-> forall a, o = Some a -> P a).
Proof.
  intros E. destruct o as [a|]; split.
  - intros H a' [= <-]. exact (proj1 (E a) H).
  - intros H. exact (proj2 (E a) (H a eq_refl)).
  - discriminate.
  - reflexivity.
Qed.

(* a test that fails unless its subject has the expected form *)
Lemma some_ex_iff {A} (o : option A) (f : A -> bool) (P : A -> Prop) :
  (forall a, f a = true <-> P a) ->
  (match o with Some a => f a | None => false end = true <-> exists a, o = Some a /\ P a).
Proof.
  intros E. destruct o as [a|]; split; try discriminate; try (intros (a' & [=] & _); fail).
  - intros H. exact (ex_intro _ a (conj eq_refl (proj1 (E a) H))).
  - intros (a' & [= <-] & H). exact (proj2 (E a) H).
Qed.

Lemma ok_iff {A} (o : res A) (f : A -> bool) (P : A -> Prop) :
  (forall a, f a = true <-> P a) ->
  (match o with Ok a => f a | _ => false end = true <-> exists a, o = Ok a /\ P a).
Proof.
  intros E. destruct o as [a|e|]; split; try discriminate; try (intros (a' & [=] & _); fail).
  - intros H. exact (ex_intro _ a (conj eq_refl (proj1 (E a) H))).
  - intros (a' & [= <-] & H). exact (proj2 (E a) H).
Qed.

Lemma not_panic_iff {A} (x : res A) : negb (is_panic x) = true <-> x <> Panic.
Proof. destruct x; cbn; split; congruence. Qed.

Lemma existsb_eqb_in x l : existsb (N.eqb x) l = true <-> In x l.
Proof. apply mem_iff, N.eqb_eq. Qed.

Lemma existsb_eqb_notin x l : existsb (N.eqb x) l = false <-> ~ In x l.
Proof. apply eq_false_iff, existsb_eqb_in. Qed.

(* The test for distinct numbers that models define for themselves (C07, C23, C30 [nodupb], C22
   [nodupN], C39 [nodup_keys]; [nodupN] of C43 is something else, it removes duplicates), and
   [BaseN.nodupb], which [codec_ok] tests alphabets with; [nodupb_iff] applies to each by
   conversion. *)
Fixpoint nodupb (l : list N) : bool :=
  match l with
  | [] => true
  | a :: r => negb (existsb (N.eqb a) r) && nodupb r
  end.

Lemma nodupb_iff l : nodupb l = true <-> NoDup l.
Proof.
  induction l as [|a l IH]; cbn [nodupb]; [split; [constructor|reflexivity]|].
  eapply iff_trans; [|apply iff_sym, NoDup_cons_iff].
  apply andb_iff; [apply negb_iff, existsb_eqb_in|exact IH].
Qed.

(* Rust's order [a <= b] on byte slices: lexicographic, a proper prefix is smaller. *)
Fixpoint lex_le (a b : bytes) : bool :=
  match a, b with
  | [], _ => true
  | _ :: _, [] => false
  | x :: a', y :: b' => if x <? y then true else if x =? y then lex_le a' b' else false
  end.

(* every law below goes by this reading: compare the heads, then the tails by induction *)
Lemma lex_le_cons x a y b :
  lex_le (x :: a) (y :: b) = true <-> x < y \/ x = y /\ lex_le a b = true.
Proof.
  cbn [lex_le]. destruct (N.ltb_spec x y) as [L|L]; [split; auto|].
  destruct (N.eqb_spec x y) as [E|E].
  - split; [auto|]. intros [H|[_ H]]; [lia|exact H].
  - split; [discriminate|]. intros [H|[H _]]; [lia|contradiction].
Qed.

Lemma lex_le_refl a : lex_le a a = true.
Proof. induction a as [|x a IH]; [reflexivity|]. apply lex_le_cons. auto. Qed.

Lemma lex_le_trans a : forall b c, lex_le a b = true -> lex_le b c = true -> lex_le a c = true.
Proof.
  induction a as [|x a IH]; intros [|y b] [|z c]; try (cbn [lex_le]; congruence).
  intros [H1|[-> H1]]%lex_le_cons [H2|[-> H2]]%lex_le_cons; apply lex_le_cons; [left; lia..|].
  right. eauto.
Qed.

Lemma lex_le_total a : forall b, lex_le a b = false -> lex_le b a = true.
Proof.
  induction a as [|x a IH]; intros [|y b]; try (cbn [lex_le]; congruence).
  intros H. apply lex_le_cons. destruct (N.lt_trichotomy y x) as [L|[->|L]]; [now left|right|].
  - split; [reflexivity|]. apply IH. cbn [lex_le] in H. now rewrite N.ltb_irrefl, N.eqb_refl in H.
  - cbn [lex_le] in H. now rewrite (proj2 (N.ltb_lt x y) L) in H.
Qed.

Lemma lex_le_antisym a : forall b, lex_le a b = true -> lex_le b a = true -> a = b.
Proof.
  induction a as [|x a IH]; intros [|y b]; try (cbn [lex_le]; congruence).
  intros [H1|[-> H1]]%lex_le_cons [H2|[E H2]]%lex_le_cons; try lia. f_equal. auto.
Qed.
