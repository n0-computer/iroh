(* Positional printing of numbers in base b (most significant digit first) with its left
   inverse, and the ASCII instances:
     dec n, hexnum n    = Rust `format!("{}", n)`, `format!("{:x}", n)` for unsigned n
     hexlow, unhexlow   = data_encoding::HEXLOWER.encode, .decode
     parse_hex_u64 s    = u64::from_str_radix(s, 16).
   Also the arithmetic of a number written as two digits in a base m ([split_digit], [join_digit],
   [digit_bound]), and that a run of digits ended by a non-digit is read back from the front of a
   string ([span_unique], [dec_field_inj]).  No axioms. *)
From V Require Import Lib.Base.
From V Require Import Lib.LiaBool.
Open Scope N_scope.

(* least significant digit first; [fuel] bounds their number *)
Fixpoint lsd (fuel : nat) (b n : N) : list N :=
  match fuel with
  | O => []
  | S f => (n mod b) :: (if n / b =? 0 then [] else lsd f b (n / b))
  end.

Fixpoint lsd_value (b : N) (ds : list N) : N :=
  match ds with
  | [] => 0
  | d :: r => d + b * lsd_value b r
  end.

(* most significant first; [N.size n], the number of binary digits of n, is
   at least the number of its digits in any base b >= 2 *)
Definition digits (b n : N) : list N := rev (lsd (S (N.to_nat (N.size n))) b n).
Definition value (b : N) (ds : list N) : N := fold_left (fun a d => a * b + d) ds 0.

Lemma lsd_S f b n :
  lsd (S f) b n = (n mod b) :: (if n / b =? 0 then [] else lsd f b (n / b)).
Proof. reflexivity. Qed.

(* fuel beyond the number of digits is not used *)
Lemma lsd_fuel b : forall f f' n,
  n < b ^ N.of_nat (S f) -> n < b ^ N.of_nat (S f') -> lsd (S f) b n = lsd (S f') b n.
Proof.
  intros f; induction f as [|f IH]; intros f' n H H'; rewrite !lsd_S;
    destruct (N.eqb_spec (n / b) 0) as [E|E]; try reflexivity.
  - destruct E. apply N.div_small. now rewrite N.pow_1_r in H.
  - destruct f' as [|f']; [destruct E; apply N.div_small; now rewrite N.pow_1_r in H'|].
    f_equal. rewrite Nat2N.inj_succ, N.pow_succ_r' in H, H'.
    apply IH; (apply N.div_lt_upper_bound; [lia|assumption]).
Qed.

Lemma lsd_value_lsd b : forall fuel n,
  n < b ^ N.of_nat (S fuel) -> lsd_value b (lsd (S fuel) b n) = n.
Proof.
  intros fuel; induction fuel as [|f IH]; intros n Hn;
    rewrite Nat2N.inj_succ, N.pow_succ_r' in Hn;
    pose proof (N.div_mod' n b) as D; rewrite lsd_S;
    destruct (N.eqb_spec (n / b) 0) as [E|E]; cbn [lsd_value].
  - rewrite E in D. lia.
  - destruct E. apply N.div_small. now rewrite N.pow_0_r, N.mul_1_r in Hn.
  - rewrite E in D. lia.
  - rewrite IH; [lia|]. apply N.div_lt_upper_bound; [lia|exact Hn].
Qed.

Lemma value_rev b l : value b (rev l) = lsd_value b l.
Proof.
  unfold value. induction l as [|d r IH]; [reflexivity|].
  cbn [rev lsd_value]. rewrite fold_left_app. cbn [fold_left]. rewrite IH. lia.
Qed.

(* the fuel [digits] gives [lsd] is enough *)
Lemma digits_fuel b n : 2 <= b -> n < b ^ N.of_nat (S (N.to_nat (N.size n))).
Proof.
  intros Hb. rewrite Nat2N.inj_succ, N2Nat.id, N.pow_succ_r'.
  apply N.lt_le_trans with (1 * 2 ^ N.size n); [rewrite N.mul_1_l; apply N.size_gt|].
  apply N.mul_le_mono; [lia|]. now apply N.pow_le_mono_l.
Qed.

Lemma value_digits b n : 2 <= b -> value b (digits b n) = n.
Proof.
  intros Hb. unfold digits. rewrite value_rev. now apply lsd_value_lsd, digits_fuel.
Qed.

Lemma digits_inj b n m : 2 <= b -> digits b n = digits b m -> n = m.
Proof. intros Hb E. rewrite <- (value_digits b n Hb), <- (value_digits b m Hb). now rewrite E. Qed.

Lemma lsd_lt b : 1 <= b -> forall fuel n, Forall (fun d => d < b) (lsd fuel b n).
Proof.
  intros Hb fuel; induction fuel as [|f IH]; intros n; cbn [lsd]; constructor.
  - apply N.mod_lt. lia.
  - destruct (n / b =? 0); [constructor | apply IH].
Qed.

Lemma digits_lt b n : 1 <= b -> Forall (fun d => d < b) (digits b n).
Proof. intros Hb. unfold digits. apply Forall_rev. now apply lsd_lt. Qed.

Lemma digits_nonempty b n : digits b n <> [].
Proof.
  unfold digits. cbn [lsd]. intros E. apply (f_equal (@length N)) in E.
  rewrite rev_length in E. cbn in E. discriminate.
Qed.

(* two digits in base m: a digit h above a digit l < m taken apart, a number put together from its
   two digits, and their bounds for a number below m * n *)
Lemma split_digit h l m : l < m -> (h * m + l) / m = h /\ (h * m + l) mod m = l.
Proof.
  intros H. assert (m <> 0) by lia. split.
  - rewrite N.div_add_l, N.div_small by assumption. apply N.add_0_r.
  - rewrite N.add_comm, N.mod_add by assumption. now apply N.mod_small.
Qed.

Lemma join_digit a m : a / m * m + a mod m = a.
Proof. rewrite N.mul_comm. symmetry. apply N.div_mod'. Qed.

Lemma digit_bound x m n : x < m * n -> x / m < n /\ x mod m < m.
Proof. intros H. split; [apply N.div_lt_upper_bound|apply N.mod_lt]; lia. Qed.

Definition dec_char (d : N) : N := 48 + d.
Definition is_dec_digit (c : N) : bool := (48 <=? c) && (c <=? 57).
Definition dec (n : N) : bytes := map dec_char (digits 10 n).
Definition undec (s : bytes) : N := value 10 (map (fun c => c - 48) s).

Lemma undec_dec n : undec (dec n) = n.
Proof.
  unfold undec, dec. rewrite map_map.
  rewrite (map_ext _ (fun d => d)); [| intros d; unfold dec_char; lia].
  rewrite map_id. apply value_digits. lia.
Qed.

Lemma dec_inj n m : dec n = dec m -> n = m.
Proof. intros E. rewrite <- (undec_dec n), <- (undec_dec m). now rewrite E. Qed.

Lemma dec_digits n : Forall (fun c => is_dec_digit c = true) (dec n).
Proof.
  unfold dec. apply Forall_map. eapply Forall_impl; [| apply (digits_lt 10 n); lia].
  intros d Hd. cbv beta in *. unfold is_dec_digit, dec_char. lia.
Qed.

Lemma dec_nonempty n : dec n <> [].
Proof. unfold dec. intros E. apply map_eq_nil in E. now apply digits_nonempty in E. Qed.

(* delimited fields are prefix-free *)
Lemma span_unique (P : N -> bool) : forall ds ds' x x' r r',
  Forall (fun c => P c = true) ds -> Forall (fun c => P c = true) ds' ->
  P x = false -> P x' = false ->
  ds ++ x :: r = ds' ++ x' :: r' -> ds = ds' /\ x = x' /\ r = r'.
Proof.
  induction ds as [|d ds IH]; intros [|d' ds'] x x' r r' H1 H2 Hx Hx' E; cbn in E.
  - injection E as -> ->. auto.
  - apply Forall_inv in H2. congruence.
  - apply Forall_inv in H1. congruence.
  - injection E as -> E. apply Forall_inv_tail in H1, H2.
    destruct (IH ds' x x' r r') as (-> & -> & ->); auto.
Qed.

(* a decimal field and its delimiter are read back from the front of a string *)
Lemma dec_field_inj n m x x' r r' :
  is_dec_digit x = false -> is_dec_digit x' = false ->
  dec n ++ x :: r = dec m ++ x' :: r' -> n = m /\ r = r'.
Proof.
  intros Hx Hx' E. apply (span_unique is_dec_digit) in E as (E & _ & Er); auto using dec_digits.
  split; [now apply dec_inj|exact Er].
Qed.

Definition hex_char (d : N) : N := if d <? 10 then 48 + d else 87 + d.
Definition hexnum (n : N) : bytes := map hex_char (digits 16 n).

(* char::to_digit(16): 0-9, a-f, A-F *)
Definition hexval_any (c : N) : option N :=
  if (48 <=? c) && (c <=? 57) then Some (c - 48)
  else if (97 <=? c) && (c <=? 102) then Some (c - 87)
  else if (65 <=? c) && (c <=? 70) then Some (c - 55)
  else None.
(* HEXLOWER: 0-9, a-f only *)
Definition hexval_low (c : N) : option N :=
  if (48 <=? c) && (c <=? 57) then Some (c - 48)
  else if (97 <=? c) && (c <=? 102) then Some (c - 87)
  else None.

Definition is_hex_low (c : N) : bool := ((48 <=? c) && (c <=? 57)) || ((97 <=? c) && (c <=? 102)).

Lemma hexval_low_char d : d < 16 -> hexval_low (hex_char d) = Some d.
Proof.
  intros H. unfold hexval_low, hex_char. destruct (d <? 10) eqn:E.
  - replace ((48 <=? 48 + d) && (48 + d <=? 57)) with true by lia. f_equal; lia.
  - replace ((48 <=? 87 + d) && (87 + d <=? 57)) with false by lia.
    replace ((97 <=? 87 + d) && (87 + d <=? 102)) with true by lia. f_equal; lia.
Qed.

Lemma hexval_low_Some c d :
  hexval_low c = Some d -> hexval_any c = Some d /\ is_hex_low c = true.
Proof. unfold hexval_low, hexval_any, is_hex_low. destruct (_ && _), (_ && _); now split. Qed.

Lemma hexval_any_char d : d < 16 -> hexval_any (hex_char d) = Some d.
Proof. intros H. now apply hexval_low_Some, hexval_low_char. Qed.

Lemma hex_char_is_hex d : d < 16 -> is_hex_low (hex_char d) = true.
Proof. intros H. now apply (hexval_low_Some _ d), hexval_low_char. Qed.

Lemma hexnum_is_hex n : Forall (fun c => is_hex_low c = true) (hexnum n).
Proof.
  unfold hexnum. apply Forall_map. eapply Forall_impl; [| apply (digits_lt 16 n); lia].
  intros d Hd. now apply hex_char_is_hex.
Qed.

(* BaseN.map_opt with the two matches taken at once ([parse_hex_u64] is stated with this one); the
   two agree on every input, Hex.map_opt_Dec, and BaseN has the lemmas that read a result *)
Fixpoint map_opt {A B} (f : A -> option B) (l : list A) : option (list B) :=
  match l with
  | [] => Some []
  | a :: r => match f a, map_opt f r with
              | Some b, Some r' => Some (b :: r')
              | _, _ => None
              end
  end.

Lemma map_opt_map {A B} (f : A -> option B) (g : B -> A) (l : list B) :
  Forall (fun b => f (g b) = Some b) l -> map_opt f (map g l) = Some l.
Proof.
  induction 1 as [|b l Hb _ IH]; cbn; [reflexivity|]. now rewrite Hb, IH.
Qed.

(* u64::from_str_radix(s, 16): one optional leading '+' (a lone sign is an
   error), at least one digit, digits of either case, overflow is an error
   (18446744073709551615 is u64::MAX, MachineInt.U64_MAX). *)
Definition strip_plus (s : bytes) : bytes :=
  match s with
  | c :: ((_ :: _) as rest) => if c =? 43 then rest else s
  | _ => s
  end.

Definition parse_hex_u64 (s : bytes) : option N :=
  let ds := strip_plus s in
  match ds with
  | [] => None
  | _ => match map_opt hexval_any ds with
         | Some vs => let v := value 16 vs in
                      if v <=? 18446744073709551615 then Some v else None
         | None => None
         end
  end.

Lemma strip_plus_hex s : Forall (fun c => is_hex_low c = true) s -> strip_plus s = s.
Proof.
  destruct s as [|c [|d r]]; try reflexivity. intros F. cbn [strip_plus].
  destruct (N.eqb_spec c 43) as [->|_]; [|reflexivity]. now inversion F.
Qed.

Lemma parse_hex_u64_hexnum n : n <= 18446744073709551615 -> parse_hex_u64 (hexnum n) = Some n.
Proof.
  intros Hn. unfold parse_hex_u64. cbv zeta. rewrite strip_plus_hex by apply hexnum_is_hex.
  destruct (hexnum n) as [|c r] eqn:E.
  { unfold hexnum in E. apply map_eq_nil in E. now apply digits_nonempty in E. }
  rewrite <- E. unfold hexnum. rewrite map_opt_map.
  - rewrite value_digits by lia. now apply N.leb_le in Hn as ->.
  - eapply Forall_impl; [| apply (digits_lt 16 n); lia]. intros d Hd. now apply hexval_any_char.
Qed.

(* the codec BaseN.HEXLOWER written on the two nibbles of a byte; no lemma ties the two *)
Definition hexlow (data : bytes) : bytes :=
  flat_map (fun b => [hex_char (b / 16); hex_char (b mod 16)]) data.

Fixpoint unhexlow_aux (fuel : nat) (s : bytes) : option bytes :=
  match fuel with
  | O => match s with [] => Some [] | _ => None end
  | S f =>
      match s with
      | [] => Some []
      | [_] => None
      | a :: b :: r =>
          match hexval_low a, hexval_low b, unhexlow_aux f r with
          | Some x, Some y, Some r' => Some (x * 16 + y :: r')
          | _, _, _ => None
          end
      end
  end.
Definition unhexlow (s : bytes) : option bytes := unhexlow_aux (length s) s.

Lemma hexlow_cons b d : hexlow (b :: d) = hex_char (b / 16) :: hex_char (b mod 16) :: hexlow d.
Proof. reflexivity. Qed.

Lemma unhexlow_aux_hexlow data : Forall (fun b => b < 256) data ->
  forall fuel, (length data <= fuel)%nat -> unhexlow_aux fuel (hexlow data) = Some data.
Proof.
  induction 1 as [|b data Hb _ IH]; intros fuel Hf.
  - destruct fuel; reflexivity.
  - destruct fuel as [|f]; [cbn in Hf; lia|].
    destruct (digit_bound b 16 16 Hb) as (Hh & Hl).
    rewrite hexlow_cons. cbn [unhexlow_aux].
    rewrite !hexval_low_char, IH by (assumption || (cbn in Hf; lia)).
    do 2 f_equal. apply join_digit.
Qed.

Lemma hexlow_length data : length (hexlow data) = (2 * length data)%nat.
Proof.
  induction data as [|b d IH]; [reflexivity|]. rewrite hexlow_cons. cbn [length]. lia.
Qed.

Lemma unhexlow_hexlow data : Forall (fun b => b < 256) data -> unhexlow (hexlow data) = Some data.
Proof.
  intros H. unfold unhexlow. apply unhexlow_aux_hexlow; [exact H|]. rewrite hexlow_length. lia.
Qed.

Lemma hexlow_is_hex data : Forall (fun b => b < 256) data -> Forall (fun c => is_hex_low c = true) (hexlow data).
Proof.
  induction 1 as [|b d Hb _ IH]; [constructor|].
  destruct (digit_bound b 16 16 Hb) as (Hh & Hl).
  rewrite hexlow_cons. auto using hex_char_is_hex.
Qed.
