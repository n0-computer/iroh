(* Rust's `{:x}` formatting of a u64 and `u64::from_str_radix(s, 16)`
   (core::num::from_ascii_radix), with the round trip.  No axioms. *)
From V Require Import Lib.Base Lib.MachineInt Lib.BaseN.
(* not imported: Dec has its own [map_opt], and the one in [u64_from_str_radix16] is BaseN's *)
From V Require Lib.Dec.
Open Scope N_scope.

(* most significant first, no leading zero ("0" for 0) *)
Fixpoint hexdigits (fuel : nat) (n : N) : list N :=
  match fuel with
  | O => []
  | S f => if n <? 16 then [n] else hexdigits f (n / 16) ++ [n mod 16]
  end.

Definition digit_char (d : N) : N := if d <? 10 then 48 + d else 87 + d.

Definition fmt_lower_hex (n : N) : bytes := map digit_char (hexdigits 16 n).

(* char::to_digit(16): 0-9 a-f A-F *)
Definition hexval (ch : N) : option N :=
  if (48 <=? ch) && (ch <=? 57) then Some (ch - 48)
  else if (97 <=? ch) && (ch <=? 102) then Some (ch - 87)
  else if (65 <=? ch) && (ch <=? 70) then Some (ch - 55)
  else None.

Definition digits_value (ds : list N) : N := fold_left (fun a d => a * 16 + d) ds 0.

(* None = any ParseIntError: empty input, a lone '+' or '-', an invalid digit (among them
   '-': unsigned types have no minus sign), overflow; one leading '+' is skipped.  The partial
   values do not decrease, so checked_mul/checked_add overflow at some step exactly when the
   final value exceeds u64::MAX. *)
Definition u64_from_str_radix16 (s : bytes) : option N :=
  match s with
  | [] => None
  | c :: r =>
      if ((c =? 43) || (c =? 45)) && (match r with [] => true | _ => false end) then None
      else
        let digits := if c =? 43 then r else s in
        match map_opt hexval digits with
        | None => None
        | Some vs => let v := digits_value vs in if v <=? U64_MAX then Some v else None
        end
  end.

(* Dec states the same two functions as [hexnum] and [parse_hex_u64]; Model/C02 is written with
   these, Model/C31 with Dec's.  [digit_char], [hexval] and [digits_value] are Dec's [hex_char],
   [hexval_any] and [value 16] up to conversion; [hexdigits] differs in its fuel and the parser in
   where it rejects a lone sign.  With the two equations the round trip is Dec's. *)
Lemma hexdigits_lsd f : forall n, hexdigits f n = rev (Dec.lsd f 16 n).
Proof.
  induction f as [|f IH]; intros n; [reflexivity|]. cbn [hexdigits]. rewrite Dec.lsd_S.
  destruct (N.ltb_spec n 16) as [H|H].
  - now rewrite N.div_small, N.mod_small.
  - destruct (N.eqb_spec (n / 16) 0) as [E|_].
    + apply N.div_small_iff in E; lia.
    + cbn [rev]. now rewrite IH.
Qed.

(* beyond u64 [hexdigits 16] drops the leading digits and [Dec.digits 16] does not *)
Lemma fmt_lower_hex_hexnum n : n <= U64_MAX -> fmt_lower_hex n = Dec.hexnum n.
Proof.
  intros H. unfold fmt_lower_hex, Dec.hexnum, Dec.digits. rewrite hexdigits_lsd. do 2 f_equal.
  (* the fuel 16 is enough below 16 ^ 16, which is N.succ U64_MAX by conversion *)
  apply Dec.lsd_fuel; [exact (proj2 (N.lt_succ_r n U64_MAX) H)|].
  now apply Dec.digits_fuel.
Qed.

Lemma map_opt_Dec {A B} (f : A -> option B) l : map_opt f l = Dec.map_opt f l.
Proof. induction l as [|a l IH]; cbn; [reflexivity|]. rewrite IH. now destruct (f a). Qed.

(* on every input: a lone sign is rejected here by the first test, there as an invalid digit *)
Lemma u64_from_str_radix16_parse s : u64_from_str_radix16 s = Dec.parse_hex_u64 s.
Proof.
  unfold u64_from_str_radix16, Dec.parse_hex_u64. rewrite <- !map_opt_Dec.
  destruct s as [|c [|d r]]; [reflexivity| |]; cbn [Dec.strip_plus].
  - destruct (N.eqb_spec c 43) as [->|_]; [reflexivity|].
    destruct (N.eqb_spec c 45) as [->|_]; reflexivity.
  - rewrite andb_false_r. now destruct (c =? 43).
Qed.

Theorem from_str_radix_fmt n : n <= U64_MAX -> u64_from_str_radix16 (fmt_lower_hex n) = Some n.
Proof.
  intros Hn. rewrite u64_from_str_radix16_parse, fmt_lower_hex_hexnum by exact Hn.
  now apply Dec.parse_hex_u64_hexnum.
Qed.

Example fmt_lower_hex_ex :
  fmt_lower_hex 0 = str_bytes "0" /\ fmt_lower_hex 3735928559 = str_bytes "deadbeef" /\
  fmt_lower_hex U64_MAX = str_bytes "ffffffffffffffff".
Proof. vm_compute. auto. Qed.

Example from_str_radix_ex :
  u64_from_str_radix16 (str_bytes "+Ff") = Some 255 /\ u64_from_str_radix16 (str_bytes "-1") = None /\
  u64_from_str_radix16 (str_bytes "+") = None /\ u64_from_str_radix16 (str_bytes "") = None /\
  u64_from_str_radix16 (str_bytes "00000000000000000001") = Some 1 /\
  u64_from_str_radix16 (str_bytes "10000000000000000") = None /\
  u64_from_str_radix16 (str_bytes "++1") = None.
Proof. vm_compute. repeat split. Qed.
