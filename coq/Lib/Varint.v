(* QUIC variable-length integers (RFC 9000 section 16) as implemented by
   noq_proto::VarInt (Encodable::encode / Decodable::decode), over byte lists.  No axioms.
   noq-proto-1.1.0/src/varint.rs:
     decode: empty -> UnexpectedEnd; tag = b0 >> 6; b0 &= 0x3f;
             00 -> b0; 01 -> needs 1 more byte; 10 -> 3 more; 11 -> 7 more
             (big endian); `_ => unreachable!()`.
     encode: x < 2^6 -> put_u8; < 2^14 -> put_u16(0b01<<14 | x); < 2^30 ->
             put_u32(0b10<<30 | x); < 2^62 -> put_u64(0b11<<62 | x);
             else unreachable!("malformed VarInt"). *)
From V Require Import Lib.Base Lib.Lists.
From V Require Lib.Dec.
Open Scope N_scope.

(* a module, since [encode], [decode] and [bytes_ok] are also names of BaseN, Crypto and the models *)
Module Varint.

(* the test of BaseN.bytes_ok and Crypto.bytes_ok under a third name: convertible, but a [rewrite]
   with a lemma about one does not find the others *)
Definition bytes_ok (b : bytes) : bool := forallb (fun x => x <? 256) b.

(* big-endian: the n low bytes of x / the value of a byte list continuing an accumulator.
   (Model/C32 and Model/C39 each have a [be_bytes] of their own that recurses on x / 256: the lemmas
   here do not apply to them.) *)
Fixpoint be_bytes (n : nat) (x : N) : bytes :=
  match n with
  | O => []
  | S k => ((x / 256 ^ N.of_nat k) mod 256) :: be_bytes k x
  end.

Fixpoint be_acc (acc : N) (b : bytes) : N :=
  match b with
  | [] => acc
  | x :: r => be_acc (acc * 256 + x) r
  end.

Definition be_val (b : bytes) : N := be_acc 0 b.

Definition E_END : N := 0.   (* coding::UnexpectedEnd *)

(* VarInt::size / the number of bytes encode writes *)
Definition size (x : N) : N :=
  if x <? 64 then 1 else if x <? 16384 then 2 else if x <? 1073741824 then 4 else 8.

Definition BOUND : N := 4611686018427387904.  (* 2^62 *)

Definition encode (x : N) : res bytes :=
  if x <? 64 then Ok [x]
  else if x <? 16384 then Ok (be_bytes 2 (16384 + x))
  else if x <? 1073741824 then Ok (be_bytes 4 (2147483648 + x))
  else if x <? BOUND then Ok (be_bytes 8 (13835058055282163712 + x))
  else Panic.

(* the k bytes following the first byte, appended big-endian to its low 6 bits *)
Definition take_wide (k : nat) (v0 : N) (r : bytes) : res (N * bytes) :=
  if len r <? N.of_nat k then Err E_END
  else Ok (be_acc v0 (firstn k r), skipn k r).

Definition decode (b : bytes) : res (N * bytes) :=
  match b with
  | [] => Err E_END
  | b0 :: r =>
      let v0 := b0 mod 64 in
      match b0 / 64 with
      | 0 => Ok (v0, r)
      | 1 => take_wide 1 v0 r
      | 2 => take_wide 3 v0 r
      | 3 => take_wide 7 v0 r
      | _ => Panic            (* unreachable!(): a u8 shifted right by 6 is at most 3 *)
      end
  end.

Lemma pow256_pos k : 0 < 256 ^ N.of_nat k.
Proof. apply N.neq_0_lt_0, N.pow_nonzero. discriminate. Qed.

Lemma pow256_S k : 256 ^ N.of_nat (S k) = 256 ^ N.of_nat k * 256.
Proof. rewrite Nat2N.inj_succ, N.pow_succ_r'. apply N.mul_comm. Qed.

Lemma be_bytes_length n x : length (be_bytes n x) = n.
Proof. induction n as [|k IH]; cbn [be_bytes length]; [reflexivity|]. now rewrite IH. Qed.

Lemma be_bytes_len n x : len (be_bytes n x) = N.of_nat n.
Proof. unfold len. now rewrite be_bytes_length. Qed.

Lemma be_bytes_ok n x : bytes_ok (be_bytes n x) = true.
Proof.
  induction n as [|k IH]; cbn [be_bytes bytes_ok forallb]; [reflexivity|].
  apply andb_true_intro; split; [|exact IH].
  apply N.ltb_lt, N.mod_lt. discriminate.
Qed.

Lemma be_acc_app acc a b : be_acc acc (a ++ b) = be_acc (be_acc acc a) b.
Proof. revert acc; induction a as [|x a IH]; intros acc; cbn [be_acc app]; [reflexivity|]. apply IH. Qed.

(* at acc < 64 and seven bytes, the widest case of [decode]: a decoded value is below
   64 * 256 ^ 7 = BOUND *)
Lemma be_acc_bound b : forall acc, bytes_ok b = true ->
  be_acc acc b < (acc + 1) * 256 ^ N.of_nat (length b).
Proof.
  induction b as [|x r IH]; intros acc H.
  - cbn. lia.
  - cbn [bytes_ok forallb] in H. apply andb_prop in H as [Hx Hr]. apply N.ltb_lt in Hx.
    cbn [be_acc length]. specialize (IH (acc * 256 + x) Hr).
    rewrite pow256_S. pose proof (pow256_pos (length r)). nia.
Qed.

Lemma be_acc_be_bytes n : forall acc x,
  be_acc acc (be_bytes n x) = acc * 256 ^ N.of_nat n + x mod 256 ^ N.of_nat n.
Proof.
  induction n as [|k IH]; intros acc x.
  - cbn [be_bytes be_acc N.of_nat]. rewrite N.pow_0_r, N.mod_1_r. lia.
  - cbn [be_bytes be_acc]. rewrite IH.
    pose proof (pow256_pos k) as Hp.
    rewrite pow256_S.
    rewrite (N.mod_mul_r x (256 ^ N.of_nat k) 256) by lia.
    set (P := 256 ^ N.of_nat k) in *.
    set (d := (x / P) mod 256). set (m := x mod P). lia.
Qed.

Lemma be_val_be_bytes n x : x < 256 ^ N.of_nat n -> be_val (be_bytes n x) = x.
Proof.
  intros H. unfold be_val. rewrite be_acc_be_bytes, N.mod_small by exact H. lia.
Qed.

Lemma take_wide_Ok k v r x rest :
  take_wide k v r = Ok (x, rest) <->
  exists p, r = p ++ rest /\ length p = k /\ x = be_acc v p.
Proof.
  unfold take_wide, len. split.
  - destruct (N.ltb_spec (N.of_nat (length r)) (N.of_nat k)) as [|Hl]; [discriminate|].
    intros [= <- <-]. exists (firstn k r).
    rewrite firstn_skipn, firstn_length_le by lia. auto.
  - intros (p & -> & <- & ->). rewrite app_length.
    destruct (N.ltb_spec (N.of_nat (length p + length rest)) (N.of_nat (length p))); [lia|].
    now rewrite firstn_app_length, skipn_app_length.
Qed.

(* tag t in the top two bits of the first byte, then x on 6 + 8k bits: the first byte is the tag
   above six value bits, two digits in base 64.  [encode] writes the three products t * 64 * 256 ^ k
   as 16384, 2147483648 and 13835058055282163712, which [decode_encode] leaves to conversion. *)
Lemma decode_wide t k x rest :
  In (t, k) [(1, 1%nat); (2, 3%nat); (3, 7%nat)] -> x < 64 * 256 ^ N.of_nat k ->
  decode (be_bytes (S k) (t * 64 * 256 ^ N.of_nat k + x) ++ rest) = Ok (x, rest).
Proof.
  intros Htk Hx. pose proof (pow256_pos k) as Hp.
  cbn [be_bytes app decode]. set (P := 256 ^ N.of_nat k) in *.
  assert (Hh : x / P < 64) by (apply N.div_lt_upper_bound; lia).
  assert (W : take_wide k (x / P) (be_bytes k (t * 64 * P + x) ++ rest) = Ok (x, rest)).
  { apply take_wide_Ok. exists (be_bytes k (t * 64 * P + x)).
    rewrite be_bytes_length, be_acc_be_bytes. fold P.
    rewrite (N.add_comm _ x), N.mod_add, (N.mul_comm (x / P)) by lia.
    auto using N.div_mod'. }
  assert (Ht : t < 4) by (destruct Htk as [[= <- _]|[[= <- _]|[[= <- _]|[]]]]; reflexivity).
  rewrite N.div_add_l, N.mod_small by lia. destruct (Dec.split_digit t _ 64 Hh) as (-> & ->).
  destruct Htk as [[= <- <-]|[[= <- <-]|[[= <- <-]|[]]]]; exact W.
Qed.

Lemma encode_ok x : x < BOUND -> exists e, encode x = Ok e /\ len e = size x /\ bytes_ok e = true.
Proof.
  intros H. unfold encode, size.
  destruct (x <? 64) eqn:E1.
  { eexists; repeat split. cbn. apply N.ltb_lt in E1. rewrite andb_true_r. apply N.ltb_lt; lia. }
  destruct (x <? 16384) eqn:E2.
  { eexists; repeat split. apply be_bytes_ok. }
  destruct (x <? 1073741824) eqn:E3.
  { eexists; repeat split. apply be_bytes_ok. }
  apply N.ltb_lt in H. rewrite H.
  eexists; repeat split. apply be_bytes_ok.
Qed.

Lemma encode_panic_iff x : encode x = Panic <-> BOUND <= x.
Proof.
  split.
  - intros P. destruct (N.lt_ge_cases x BOUND) as [L|G]; [|exact G].
    destruct (encode_ok x L) as (e & E & _). congruence.
  - intros G. unfold encode, BOUND in *.
    now rewrite !(proj2 (N.ltb_ge x _)) by lia.
Qed.

Lemma decode_encode x rest e :
  encode x = Ok e -> decode (e ++ rest) = Ok (x, rest).
Proof.
  unfold encode.
  destruct (N.ltb_spec x 64) as [H1|_].
  { intros [= <-]. cbn [app decode]. now rewrite N.div_small, N.mod_small. }
  destruct (N.ltb_spec x 16384) as [H2|_].
  { intros [= <-]. apply (decode_wide 1 1); [now left|exact H2]. }
  destruct (N.ltb_spec x 1073741824) as [H3|_].
  { intros [= <-]. apply (decode_wide 2 3); [now right; left|exact H3]. }
  destruct (N.ltb_spec x BOUND) as [H4|_]; [|discriminate].
  intros [= <-]. apply (decode_wide 3 7); [now do 2 right; left|exact H4].
Qed.

Lemma take_wide_no_panic k v r : take_wide k v r <> Panic.
Proof. unfold take_wide. destruct (len r <? N.of_nat k); discriminate. Qed.

Lemma decode_no_panic b : bytes_ok b = true -> decode b <> Panic.
Proof.
  destruct b as [|b0 r]; [discriminate|]. cbn [bytes_ok forallb]. intros H.
  apply andb_prop in H as [H0 _]. apply N.ltb_lt in H0.
  cbn [decode].
  assert (Hd : b0 / 64 < 4) by (apply N.div_lt_upper_bound; lia).
  destruct (b0 / 64) as [|p] eqn:E; [discriminate|].
  destruct p as [[|[]|]|[|[]|]|]; try discriminate; try apply take_wide_no_panic; lia.
Qed.

Lemma decode_shape b x rest :
  decode b = Ok (x, rest) ->
  exists p, b = p ++ rest /\
    (length p = 1 \/ length p = 2 \/ length p = 4 \/ length p = 8)%nat.
Proof.
  destruct b as [|b0 r]; [discriminate|]. cbn [decode].
  destruct (b0 / 64) as [|p].
  { intros [= _ <-]. exists [b0]. cbn. auto. }
  destruct p as [[|[]|]|[|[]|]|]; try discriminate; intros H;
    apply take_wide_Ok in H as (q & -> & Hq & _); exists (b0 :: q); cbn [app length]; rewrite Hq; auto.
Qed.

Lemma decode_rest_shorter b x rest : decode b = Ok (x, rest) -> len rest < len b.
Proof.
  intros H. apply decode_shape in H as (p & -> & Hp). unfold len. rewrite app_length. lia.
Qed.

Example encode_examples :
  encode 37 = Ok [37] /\ encode 15293 = Ok (hex "7bbd") /\
  encode 494878333 = Ok (hex "9d7f3e7d") /\
  encode 151288809941952652 = Ok (hex "c2197c5eff14e88c") /\
  decode (hex "4025") = Ok (37, []).   (* RFC 9000 A.1, incl. the non-minimal two-byte 37 *)
Proof. vm_compute. repeat split. Qed.

End Varint.
