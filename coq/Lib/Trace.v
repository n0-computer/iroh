(* Runs and invariant induction over them, in the three shapes the models' runs have: a partial
   step ([orun], [orun_inv]), a total step folded over the trace ([fold_left_inv], [fold_left_rel]),
   a step that also gives an observation ([mrun_cons]).  A model's own [run] that recurses over the
   trace with the partial step function as its only parameter (C07's, say) is [orun] by conversion,
   and the lemmas here apply to it as they are; one whose fixpoint carries further arguments (C21's
   [steps md], say) is tied to [orun] by one induction over the trace in its proof file. *)
From Coq Require Import List.
Import ListNotations.

Section Trace.
Context {S E : Type} (step : S -> E -> option S).

Fixpoint orun (s : S) (tr : list E) : option S :=
  match tr with
  | [] => Some s
  | e :: r => match step s e with Some s' => orun s' r | None => None end
  end.

Lemma orun_app tr1 : forall s tr2,
  orun s (tr1 ++ tr2) = match orun s tr1 with Some s' => orun s' tr2 | None => None end.
Proof.
  induction tr1 as [|e r IH]; intros s tr2; cbn; [reflexivity|].
  destruct (step s e); auto.
Qed.

Lemma orun_inv (Inv : S -> Prop) :
  (forall s e s', Inv s -> step s e = Some s' -> Inv s') ->
  forall tr s s', Inv s -> orun s tr = Some s' -> Inv s'.
Proof.
  intros Hstep. induction tr as [|e r IH]; cbn; intros s s' Hs.
  - now intros [= <-].
  - destruct (step s e) as [s1|] eqn:E1; [|discriminate]. eauto.
Qed.
End Trace.

(* [orun_inv] for a total step folded over a trace. *)
Lemma fold_left_inv {S E} (step : S -> E -> S) (Inv : S -> Prop) :
  (forall s e, Inv s -> Inv (step s e)) -> forall tr s, Inv s -> Inv (fold_left step tr s).
Proof. intros H. induction tr as [|e r IH]; cbn; auto. Qed.

(* Two folds over one list keep their accumulators related. *)
Lemma fold_left_rel {A B E} (R : A -> B -> Prop) (f : A -> E -> A) (g : B -> E -> B) :
  (forall a b e, R a b -> R (f a e) (g b e)) ->
  forall l a b, R a b -> R (fold_left f l a) (fold_left g l b).
Proof. intros H. induction l as [|e l IH]; cbn; auto. Qed.

(* Runs that give one observation per event: [step] gives the next state and the observation,
   [run] the last state and the observations in order.  [run_step] is the unfolding of a model's
   own fixpoint of this shape (C18 [run], C36 and C37 [run_from]), which [eq_refl] proves.  Its
   [let '(_, _) := ..] does not reduce until the pair is destructed; [mrun_cons] states the
   unfolding through [fst] and [snd], so that [rewrite] can go on.  A run with further arguments
   (C22's takes a clock) states its own [run_cons]. *)
Section Mealy.
Context {S E O : Type} (step : S -> E -> S * O) (run : S -> list E -> S * list O).
Context (run_step : forall s e r, run s (e :: r) =
           let '(s1, o) := step s e in let '(s2, os) := run s1 r in (s2, o :: os)).

Lemma mrun_cons s e r :
  run s (e :: r) = (fst (run (fst (step s e)) r), snd (step s e) :: snd (run (fst (step s e)) r)).
Proof. rewrite run_step. destruct (step s e) as [s1 o]. cbn [fst snd]. now destruct (run s1 r). Qed.
End Mealy.
