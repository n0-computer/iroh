(* postcard's varint (unsigned LEB128) for u16 / u32 / u64 / usize(=u64): encoder
   postcard::varint::varint_uNN, decoder postcard::de::deserializer::try_take_varint_uNN.
   Like postcard's, the decoder accepts non-minimal encodings (0x80 0x00 for 0): only
   `decode (encode n ++ rest) = (n, rest)` is claimed.  No axioms. *)
From V Require Import Lib.Base Lib.MachineInt.
Open Scope N_scope.

(* loop of varint_uNN: low 7 bits first, 0x80 = continuation *)
Fixpoint leb_enc (fuel : nat) (n : N) : bytes :=
  match fuel with
  | O => []
  | S f => if n <? 128 then [n] else (n mod 128 + 128) :: leb_enc f (n / 128)
  end.

(* try_take_varint_uNN: at most `fuel` bytes, the last permitted one <= lastmax
   (max_of_last_byte).  Err 1 = DeserializeUnexpectedEnd, Err 2 = DeserializeBadVarint.
   mult = 128^i, acc = value so far. *)
Fixpoint leb_dec (fuel : nat) (lastmax mult acc : N) (l : bytes) : res (N * bytes) :=
  match fuel with
  | O => Err 2
  | S f =>
      match l with
      | [] => Err 1
      | b :: r =>
          let acc' := acc + (b mod 128) * mult in
          if b <? 128 then
            (if (match f with O => true | _ => false end) && (lastmax <? b) then Err 2 else Ok (acc', r))
          else leb_dec f lastmax (mult * 128) acc' r
      end
  end.

Definition varint_u64_enc (n : N) : bytes := leb_enc 10 n.
Definition varint_u32_enc (n : N) : bytes := leb_enc 5 n.
Definition varint_u16_enc (n : N) : bytes := leb_enc 3 n.
Definition varint_u64_dec (l : bytes) : res (N * bytes) := leb_dec 10 1 1 0 l.
Definition varint_u32_dec (l : bytes) : res (N * bytes) := leb_dec 5 15 1 0 l.
Definition varint_u16_dec (l : bytes) : res (N * bytes) := leb_dec 3 3 1 0 l.

Lemma leb_enc_S f n :
  leb_enc (S f) n = if n <? 128 then [n] else (n mod 128 + 128) :: leb_enc f (n / 128).
Proof. reflexivity. Qed.

Lemma leb_dec_last f lastmax mult acc n rest :
  n < 128 -> (f = 0%nat -> n <= lastmax) ->
  leb_dec (S f) lastmax mult acc (n :: rest) = Ok (acc + n * mult, rest).
Proof.
  intros Hn Hl. cbn [leb_dec]. rewrite (proj2 (N.ltb_lt _ _) Hn), N.mod_small by exact Hn.
  destruct f; [|reflexivity]. now rewrite (proj2 (N.ltb_ge _ _) (Hl eq_refl)).
Qed.

Lemma leb_dec_cont f lastmax mult acc r rest :
  r < 128 ->
  leb_dec (S f) lastmax mult acc (r + 128 :: rest) =
  leb_dec f lastmax (mult * 128) (acc + r * mult) rest.
Proof.
  intros H. cbn [leb_dec].
  rewrite (proj2 (N.ltb_ge (r + 128) 128)) by lia.
  now rewrite <- (N.mod_unique (r + 128) 128 1 r) by lia.
Qed.

Lemma leb_dec_enc lastmax : lastmax < 128 -> forall f n mult acc rest,
  n < 128 ^ N.of_nat f * (lastmax + 1) ->
  leb_dec (S f) lastmax mult acc (leb_enc (S f) n ++ rest) = Ok (acc + n * mult, rest).
Proof.
  intros Hl f; induction f as [|f IH]; intros n mult acc rest Hn;
    rewrite leb_enc_S; destruct (N.ltb_spec n 128) as [E|E].
  - apply leb_dec_last; [exact E|]. change (128 ^ N.of_nat 0) with 1 in Hn. lia.
  - change (128 ^ N.of_nat 0) with 1 in Hn. lia.
  - apply leb_dec_last; [exact E|discriminate].
  - cbn [app]. rewrite leb_dec_cont by now apply N.mod_lt. rewrite IH.
    + do 2 f_equal. generalize (N.div_mod' n 128). generalize (n / 128) (n mod 128).
      intros q r ->. ring.
    + apply N.div_lt_upper_bound; [discriminate|].
      now rewrite Nat2N.inj_succ, N.pow_succ_r', <- N.mul_assoc in Hn.
Qed.

Theorem leb_roundtrip f lastmax n rest :
  lastmax < 128 -> n < 128 ^ N.of_nat f * (lastmax + 1) ->
  leb_dec (S f) lastmax 1 0 (leb_enc (S f) n ++ rest) = Ok (n, rest).
Proof. intros Hl Hn. rewrite leb_dec_enc by assumption. now rewrite N.mul_1_r. Qed.

(* In each width the bound 128^f * (lastmax + 1) is the type's MAX + 1. *)
Theorem varint_u64_roundtrip n rest : n <= U64_MAX ->
  varint_u64_dec (varint_u64_enc n ++ rest) = Ok (n, rest).
Proof. intros H. apply leb_roundtrip; [reflexivity|]. exact (proj2 (N.lt_succ_r n U64_MAX) H). Qed.

Theorem varint_u32_roundtrip n rest : n <= U32_MAX ->
  varint_u32_dec (varint_u32_enc n ++ rest) = Ok (n, rest).
Proof. intros H. apply leb_roundtrip; [reflexivity|]. exact (proj2 (N.lt_succ_r n U32_MAX) H). Qed.

Theorem varint_u16_roundtrip n rest : n <= U16_MAX ->
  varint_u16_dec (varint_u16_enc n ++ rest) = Ok (n, rest).
Proof. intros H. apply leb_roundtrip; [reflexivity|]. exact (proj2 (N.lt_succ_r n U16_MAX) H). Qed.

Lemma leb_dec_total f lastmax mult acc l : leb_dec f lastmax mult acc l <> Panic.
Proof.
  revert mult acc l; induction f as [|f IH]; intros mult acc l; cbn [leb_dec]; [discriminate|].
  destruct l as [|b r]; [discriminate|].
  destruct (b <? 128); [|apply IH].
  destruct (_ && _); discriminate.
Qed.

Lemma leb_dec_consumes f lastmax mult acc l v r :
  leb_dec f lastmax mult acc l = Ok (v, r) -> (length r < length l)%nat.
Proof.
  revert mult acc l; induction f as [|f IH]; intros mult acc l; cbn [leb_dec]; [discriminate|].
  destruct l as [|b t]; [discriminate|].
  destruct (b <? 128).
  - destruct (_ && _); [discriminate|]. intros [= _ <-]. cbn. lia.
  - intros H. apply IH in H. cbn. lia.
Qed.

Example leb_ex :
  varint_u64_enc 300 = [172; 2] /\ varint_u64_dec [128; 0; 7] = Ok (0, [7]) /\
  varint_u64_dec [255;255;255;255;255;255;255;255;255;2] = Err 2 /\
  varint_u64_dec [255;255;255;255;255;255;255;255;255;1] = Ok (U64_MAX, []) /\
  varint_u64_dec [255;255;255;255;255;255;255;255;255;129;0] = Err 2 /\
  varint_u16_dec [255;255;4] = Err 2 /\ varint_u64_dec [128] = Err 1.
Proof. vm_compute. repeat split. Qed.
