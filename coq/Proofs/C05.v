(* C05 — proofs: an invariant over all traces of the relay transition system
   (Model/C04.v) showing that a connection stops being served only because of
   its own client or the operator.  Proofs/C04.v builds on the facts about steps
   ([crel], [run_conn_ind]) and about the harness schedule ([sched_exec]) stated here. *)
From V Require Import Lib.Base Lib.Trace Gen.Consts.
From V Require Import Model.C04.
From V Require Import Model.C05.
Import C04.
Open Scope N_scope.

Lemma upd_nat_nth f : forall l n j,
  nth_error (upd_nat n f l) j = option_map (fun x => if Nat.eqb j n then f x else x) (nth_error l j).
Proof.
  induction l as [|x l IH]; intros n j; [now destruct n, j|].
  destruct n as [|n], j as [|j]; cbn; try reflexivity; [now destruct (nth_error l j)|apply IH].
Qed.

Lemma upd_nat_map {B} (g : conn -> B) f : forall l n,
  (forall x, nth_error l n = Some x -> g (f x) = g x) -> map g (upd_nat n f l) = map g l.
Proof.
  induction l as [|x l IH]; intros [|n] H; cbn; [reflexivity..| |].
  - now rewrite (H x eq_refl).
  - now rewrite (IH n H).
Qed.

Lemma last_opt_some {A} (l rest : list A) x : last_opt l = Some (rest, x) -> l = rest ++ [x].
Proof.
  unfold last_opt. destruct (rev l) as [|y r] eqn:E; [discriminate|].
  intros [= <- <-]. rewrite <- (rev_involutive l), E. reflexivity.
Qed.

Lemma nth_error_app_some {A} (l r : list A) j x : nth_error l j = Some x -> nth_error (l ++ r) j = Some x.
Proof. intros H. rewrite nth_error_app1; [exact H|]. apply nth_error_Some. congruence. Qed.

Lemma getc_of_nat s n : getc s (N.of_nat n) = nth_error (conns s) n.
Proof. unfold getc. now rewrite Nat2N.id. Qed.

Lemma getc_updc s k f j :
  getc (updc s k f) j = option_map (fun c => if j =? k then f c else c) (getc s j).
Proof.
  unfold getc, updc. cbn [conns]. rewrite upd_nat_nth.
  destruct (N.eqb_spec j k) as [->|Hne]; [now rewrite Nat.eqb_refl|].
  destruct (Nat.eqb_spec (N.to_nat j) (N.to_nat k)) as [E|_]; [|reflexivity].
  apply N2Nat.inj in E. contradiction.
Qed.

Lemma getc_updc_some s k f j c :
  getc s j = Some c -> getc (updc s k f) j = Some (if j =? k then f c else c).
Proof. intros H. now rewrite getc_updc, H. Qed.

Lemma getc_init k : getc init k = None.
Proof. unfold getc. now destruct (N.to_nat k). Qed.

Lemma find_entry_some id r e : find_entry id r = Some e -> In e r /\ e_id e = id.
Proof.
  induction r as [|x r IH]; cbn; [discriminate|].
  destruct (bytes_eqb (e_id x) id) eqn:E.
  - intros [= <-]. split; [now left|now apply bytes_eqb_eq].
  - intros H. destruct (IH H). split; [now right|assumption].
Qed.

Lemma put_entry_in n r e : In e (put_entry n r) -> e = n \/ In e r.
Proof.
  induction r as [|x r IH]; cbn.
  - intros [<-|[]]; now left.
  - destruct (bytes_eqb (e_id x) (e_id n)).
    + intros [<-|H]; [now left|right; now right].
    + intros [<-|H]; [right; now left|]. destruct (IH H); [now left|right; now right].
Qed.

Lemma remove_entry_in id r e : In e (remove_entry id r) -> In e r.
Proof.
  induction r as [|x r IH]; cbn; [auto|].
  destruct (bytes_eqb (e_id x) id).
  - intros H; now right.
  - intros [<-|H]; [now left|right; auto].
Qed.

Lemma forwardable_iff_sink_ok d : forwardable d = sink_ok d.
Proof. unfold forwardable, sink_ok. apply andb_comm. Qed.

Lemma running_phase c : is_running c = true -> c_phase c = Running.
Proof. unfold is_running. destruct (c_phase c); congruence. Qed.

Lemma run_snoc cfg t e : run cfg (t ++ [e]) = step cfg (run cfg t) e.
Proof. unfold run, run_from. now rewrite fold_left_app. Qed.

(* Induction from the end of the trace, the predicate seeing the trace so far: the invariants
   speak of the events behind a state ([cinv]'s [i_own], the tags of C04), which
   [Lib.Trace.fold_left_inv] does not carry.  [apply] cannot find [P] in a goal about [run cfg t]:
   say [pattern t, (run cfg t)] first. *)
Lemma run_ind cfg (P : list event -> state -> Prop) :
  P [] init -> (forall t e, P t (run cfg t) -> P (t ++ [e]) (step cfg (run cfg t) e)) ->
  forall t, P t (run cfg t).
Proof. intros H0 Hs. induction t as [|e t IH] using rev_ind; [exact H0|]. rewrite run_snoc. auto. Qed.

Definition ids (s : state) : list bytes := map c_id (conns s).

Lemma getc_ids s k c : getc s k = Some c -> nth_error (ids s) (N.to_nat k) = Some (c_id c).
Proof. unfold getc, ids. intros H. rewrite nth_error_map, H. reflexivity. Qed.

Definition listed (j : N) (e : entry) : Prop := j = e_active e \/ In j (e_inactive e).

(* the numbers an entry lists are connections authenticated as the entry's id *)
Definition reg_ok (s : state) : Prop :=
  forall e, In e (reg s) -> forall j, listed j e -> nth_error (ids s) (N.to_nat j) = Some (e_id e).

Lemma reg_ok_find s id en j :
  reg_ok s -> find_entry id (reg s) = Some en -> listed j en -> nth_error (ids s) (N.to_nat j) = Some id.
Proof. intros HR Hf. apply find_entry_some in Hf as [Hin <-]. apply (HR en Hin). Qed.

Lemma reg_ok_id s id en j c :
  reg_ok s -> find_entry id (reg s) = Some en -> listed j en -> getc s j = Some c -> c_id c = id.
Proof.
  intros HR Hf Hl Hg. apply getc_ids in Hg. rewrite (reg_ok_find _ _ _ _ HR Hf Hl) in Hg. now injection Hg.
Qed.

Lemma reg_ok_set_reg s r :
  (forall e, In e r -> In e (reg s) \/
     forall j, listed j e -> nth_error (ids s) (N.to_nat j) = Some (e_id e)) ->
  reg_ok s -> reg_ok (set_reg s r).
Proof.
  intros H HR e He j Hj. destruct (H e He) as [Hold|Hnew]; [exact (HR e Hold j Hj)|exact (Hnew j Hj)].
Qed.

Lemma reg_ok_put_entry s id act ina :
  (forall j, listed j (mkEntry id act ina) -> nth_error (ids s) (N.to_nat j) = Some id) ->
  reg_ok s -> reg_ok (set_reg s (put_entry (mkEntry id act ina) (reg s))).
Proof.
  intros H. apply reg_ok_set_reg.
  intros e' He'. apply put_entry_in in He' as [->|Hin]; [right; exact H|now left].
Qed.

(* equal but for the message queue, the protocol version and the insertion mark, of which
   the properties do not speak *)
Definition csame (c c' : conn) : Prop :=
  c_id c' = c_id c /\ c_pq c' = c_pq c /\ c_out c' = c_out c /\ c_phase c' = c_phase c /\
  c_why c' = c_why c /\ c_cop c' = c_cop c /\ c_cint c' = c_cint c.

Lemma csame_refl c : csame c c.
Proof. repeat split. Qed.

Lemma csame_trans c1 c2 c3 : csame c1 c2 -> csame c2 c3 -> csame c1 c3.
Proof.
  intros (A1 & A2 & A3 & A4 & A5 & A6 & A7) (B1 & B2 & B3 & B4 & B5 & B6 & B7).
  repeat split; congruence.
Qed.

(* An event of connection k's own client, or an operator disconnect naming k or k's id. *)
Definition own_event (vld : bytes -> bool) (k : N) (id : bytes) (e : event) : Prop :=
  e = EClose k \/ e = ESockFail k \/
  (exists raw, e = ERecv k raw /\ forall m, decode vld raw <> Ok m) \/
  (exists o, e = EDisconnect id o /\ (o = None \/ o = Some k)).

(* [e] is the read, from a running connection authenticated as [src], of a datagram [d] for [id],
   whose registry entry has [k] as its active connection *)
Definition routed (cfg : cfg) (s : state) (e : event) (k : N) (id src : bytes) (d : dgram) : Prop :=
  exists k' raw cs en,
    e = ERecv k' raw /\ decode (valid cfg) raw = Ok (CDatagrams id d) /\
    getc s k' = Some cs /\ c_phase cs = Running /\ c_id cs = src /\
    find_entry id (reg s) = Some en /\ e_active en = k.

(* How step [e] in state [s] may change connection k.  CR_exit: the actor leaves its loop
   because of its own client; CR_cancel: because it was cancelled; CR_phase: it unregisters
   or is dropped; CR_cop: the operator cancels it; CR_cint: a sender finds its queue closed.
   This is weaker than the step: [ph] in CR_phase is free, since nothing proved from [cupd] reads
   which phase follows Exiting or Unregistered; so [cupd] does not give that phases only advance. *)
Inductive cupd (cfg : cfg) (s : state) (e : event) (k : N) (c : conn) : conn -> Prop :=
| CR_same : cupd cfg s e k c c
| CR_ctrl x : (forall p, x <> FD p) -> cupd cfg s e k c (with_out (c_out c ++ [x]) c)
| CR_push dst src d : routed cfg s e k dst src d -> forwardable d = true ->
                      cupd cfg s e k c (with_pq (c_pq c ++ [mkPkt src d (clock s)]) c)
| CR_write p q : c_pq c = p :: q -> sink_ok (p_dg p) = true ->
                 cupd cfg s e k c (with_out (c_out c ++ [FD p]) (with_pq q c))
| CR_refuse p q : c_pq c = p :: q -> sink_ok (p_dg p) = false ->
                  cupd cfg s e k c (with_exit CPktWrite (with_pq q c))
| CR_exit w : c_phase c = Running -> own_event (valid cfg) k (c_id c) e ->
              w <> CPktWrite -> w <> CPeerCancel -> cupd cfg s e k c (with_exit w c)
| CR_cancel : c_phase c = Running -> c_cop c || c_cint c = true ->
              cupd cfg s e k c (with_exit (if c_cop c then COperator else CPeerCancel) c)
| CR_phase ph : c_phase c <> Running -> c_phase c <> Dropped -> cupd cfg s e k c (with_phase ph c)
| CR_cop id o en : e = EDisconnect id o -> o = None \/ o = Some k ->
                   find_entry id (reg s) = Some en -> listed k en -> cupd cfg s e k c (with_cop c)
| CR_cint : c_phase c = Dropped -> cupd cfg s e k c (with_cint c).

Definition crel (cfg : cfg) (s : state) (e : event) (k : N) (c c' : conn) : Prop :=
  exists c1, cupd cfg s e k c c1 /\ csame c1 c'.

Lemma crel_cupd cfg s e k c c1 : cupd cfg s e k c c1 -> crel cfg s e k c c1.
Proof. intros H. exists c1. split; [exact H|apply csame_refl]. Qed.

Lemma crel_same cfg s e k c c' : csame c c' -> crel cfg s e k c c'.
Proof. intros H. exists c. split; [apply CR_same|exact H]. Qed.

Lemma crel_id cfg s e k c c' : crel cfg s e k c c' -> c_id c' = c_id c.
Proof. intros (c1 & H & E). rewrite (proj1 E). destruct H; reflexivity. Qed.

Lemma crel_csame cfg s e k c c1 c2 : crel cfg s e k c c1 -> csame c1 c2 -> crel cfg s e k c c2.
Proof. intros (c0 & H & E) E2. exists c0. split; [exact H|exact (csame_trans _ _ _ E E2)]. Qed.

(* [s'] has the connections of [s], each changed within [R].  That the registry stays [reg_ok]
   rides along, so that the one walk through [step_body] ([step_body_srel]) yields it too. *)
Definition evolves (R : N -> conn -> conn -> Prop) (s s' : state) : Prop :=
  clock s' = clock s /\ ids s' = ids s /\ (reg_ok s -> reg_ok s') /\
  forall k c', getc s' k = Some c' -> exists c, getc s k = Some c /\ R k c c'.

Definition nsame : state -> state -> Prop := evolves (fun _ => csame).

Lemma evolves_refl (R : N -> conn -> conn -> Prop) s : (forall k c, R k c c) -> evolves R s s.
Proof. intros H. repeat split; auto. intros k c' Hg. eauto. Qed.

Lemma nsame_refl s : nsame s s.
Proof. apply evolves_refl. intros _. apply csame_refl. Qed.

Lemma evolves_trans (R1 R2 R3 : N -> conn -> conn -> Prop) s1 s2 s3 :
  (forall k c c1 c2, R1 k c c1 -> R2 k c1 c2 -> R3 k c c2) ->
  evolves R1 s1 s2 -> evolves R2 s2 s3 -> evolves R3 s1 s3.
Proof.
  intros HR (C1 & L1 & G1 & H1) (C2 & L2 & G2 & H2). repeat split; [congruence..|auto|].
  intros k c3 Hg. destruct (H2 k c3 Hg) as (c2 & Hg2 & E2). destruct (H1 k c2 Hg2) as (c1 & Hg1 & E1). eauto.
Qed.

Lemma nsame_trans s1 s2 s3 : nsame s1 s2 -> nsame s2 s3 -> nsame s1 s3.
Proof. apply evolves_trans. intros _. apply csame_trans. Qed.

Lemma evolves_weaken (R R' : N -> conn -> conn -> Prop) s s' :
  (forall k c c', R k c c' -> R' k c c') -> evolves R s s' -> evolves R' s s'.
Proof.
  intros HR (C & L & G & H). repeat split; auto.
  intros k c' Hg. destruct (H k c' Hg) as (c & Hc & Hs). eauto.
Qed.

Lemma evolves_flag R s s' b : evolves R s s' -> evolves R s (flag s' b).
Proof. exact (fun H => H). Qed.
Lemma evolves_set_sent R s s' x : evolves R s s' -> evolves R s (set_sent s' x).
Proof. exact (fun H => H). Qed.
Lemma evolves_set_reg R s s' r :
  (reg_ok s' -> reg_ok (set_reg s' r)) -> evolves R s s' -> evolves R s (set_reg s' r).
Proof. intros Hr (C & L & G & H). repeat split; auto. Qed.

Lemma evolves_updc (R : N -> conn -> conn -> Prop) s k f :
  (forall j c, R j c c) ->
  (forall c, getc s k = Some c -> c_id (f c) = c_id c /\ R k c (f c)) -> evolves R s (updc s k f).
Proof.
  intros Hrefl Hf.
  assert (Hi : ids (updc s k f) = ids s) by (apply upd_nat_map; intros c Hc; apply (Hf c Hc)).
  split; [reflexivity|split; [exact Hi|split]].
  - unfold reg_ok. now rewrite Hi.
  - intros j c'. rewrite getc_updc. destruct (getc s j) as [c|] eqn:E; cbn; [|discriminate].
    intros [= <-]. exists c. split; [reflexivity|].
    destruct (N.eqb_spec j k) as [->|_]; [apply (Hf c E)|apply Hrefl].
Qed.

Lemma evolves_crel_refl cfg s e : evolves (crel cfg s e) s s.
Proof. apply evolves_refl. intros. apply crel_same, csame_refl. Qed.

Lemma evolves_crel_updc cfg s e k c f :
  getc s k = Some c -> crel cfg s e k c (f c) -> evolves (crel cfg s e) s (updc s k f).
Proof.
  intros Hg Hr. apply evolves_updc; [intros; apply crel_same, csame_refl|].
  intros c0 Hc0. rewrite Hg in Hc0. injection Hc0 as <-. split; [exact (crel_id _ _ _ _ _ _ Hr)|exact Hr].
Qed.

Lemma nsame_updc s k f : (forall c, csame c (f c)) -> nsame s (updc s k f).
Proof. intros Hf. apply evolves_updc; [intros _; apply csame_refl|]. intros c _. split; [exact (proj1 (Hf c))|apply Hf]. Qed.

Lemma nsame_push_msg cfg s k m : nsame s (push_msg cfg s k m).
Proof.
  unfold push_msg. destruct (getc s k); [|apply nsame_refl].
  destruct (q_try cfg c (c_mq c)); try apply nsame_refl.
  apply nsame_updc. exact csame_refl.
Qed.

Lemma nsame_push_health cfg s k code : nsame s (push_health cfg s k code).
Proof. unfold push_health. destruct (getc s k); [apply nsame_push_msg|apply nsame_refl]. Qed.

Lemma nsame_do_insert cfg s k c : getc s k = Some c -> nsame s (do_insert cfg s k c).
Proof.
  intros Hg. unfold do_insert.
  assert (H1 : nsame s (updc s k with_ins)) by (apply nsame_updc; exact csame_refl).
  assert (Hk : nth_error (ids (updc s k with_ins)) (N.to_nat k) = Some (c_id c)).
  { rewrite (proj1 (proj2 H1)). now apply getc_ids. }
  set (s1 := updc s k with_ins) in *. change (reg s1) with (reg s).
  destruct (find_entry (c_id c) (reg s)) as [e|] eqn:Hf.
  - apply evolves_flag. eapply nsame_trans; [|apply nsame_push_health].
    apply evolves_set_reg; [|exact H1]. intros HR. apply (reg_ok_put_entry s1); [|exact HR].
    intros j [->|Hj]; [exact Hk|]. apply (reg_ok_find _ _ e _ HR Hf).
    apply in_app_or in Hj as [Hj|[<-|[]]]; [now right|now left].
  - apply evolves_set_reg; [|exact H1]. apply reg_ok_set_reg.
    intros e' He'. apply in_app_or in He' as [Hin|[<-|[]]]; [now left|right].
    intros j [->|[]]. exact Hk.
Qed.

Lemma evolves_do_unregister cfg s e k c :
  getc s k = Some c -> c_phase c = Exiting -> evolves (crel cfg s e) s (do_unregister cfg s k c).
Proof.
  intros Hg Hp. unfold do_unregister. cbv zeta.
  assert (H1 : evolves (crel cfg s e) s (updc s k (with_phase Unregistered))).
  { apply (evolves_crel_updc _ _ _ _ c _ Hg), crel_cupd, CR_phase; congruence. }
  set (s1 := updc s k (with_phase Unregistered)) in *.
  apply (evolves_trans _ (fun _ => csame) _ _ _ _ (crel_csame cfg s e) H1). clear H1.
  destruct (find_entry (c_id c) (reg s1)) as [en|] eqn:Hf; [|apply nsame_refl].
  (* an entry whose numbers are among those of the old entry *)
  assert (Hsub : forall act ina, (forall j, listed j (mkEntry (c_id c) act ina) -> listed j en) ->
            nsame s1 (set_reg s1 (put_entry (mkEntry (c_id c) act ina) (reg s1)))).
  { intros act ina Hs. apply evolves_set_reg; [|apply nsame_refl]. intros HR.
    apply reg_ok_put_entry; [|exact HR]. intros j Hj. exact (reg_ok_find _ _ en _ HR Hf (Hs j Hj)). }
  destruct (e_active en =? k).
  - destruct (last_opt (e_inactive en)) as [[rest l]|] eqn:Hl.
    + apply evolves_flag. eapply nsame_trans; [|apply nsame_push_health].
      apply last_opt_some in Hl. apply Hsub. intros j Hj. right. rewrite Hl.
      destruct Hj as [->|Hj]; [apply in_elt|apply in_or_app; now left].
    + apply (fold_left_inv _ (nsame s1)).
      * intros s0 p H. destruct (find_entry p (reg s0)); [|exact H].
        apply evolves_flag. eapply nsame_trans; [exact H|apply nsame_push_msg].
      * apply evolves_set_sent, evolves_set_reg; [|apply nsame_refl]. apply reg_ok_set_reg.
        intros e' He'. left. eapply remove_entry_in; eauto.
  - apply Hsub. intros j [->|Hj]; [now left|right]. apply filter_In in Hj. tauto.
Qed.

Lemma evolves_do_disconnect cfg s id o :
  evolves (crel cfg s (EDisconnect id o)) s (do_disconnect s id o).
Proof.
  unfold do_disconnect. destruct (find_entry id (reg s)) as [en|] eqn:Hf.
  2: apply evolves_crel_refl.
  (* cancelling twice is cancelling once *)
  set (R := fun j c c' => c' = c \/ (listed j en /\ (o = None \/ o = Some j) /\ c' = with_cop c)).
  assert (HR : forall tg s0, (forall j, In j tg -> listed j en /\ (o = None \/ o = Some j)) ->
               evolves R s s0 -> evolves R s (fold_left (fun s j => updc s j with_cop) tg s0)).
  { induction tg as [|j tg IH]; intros s0 Ht H0; [exact H0|]. cbn [fold_left].
    apply IH; [intros; apply Ht; now right|]. destruct (Ht j (or_introl eq_refl)) as [Hl Ho].
    eapply (evolves_trans R (fun k c1 c2 => c2 = c1 \/ (k = j /\ c2 = with_cop c1))); [|exact H0|].
    - intros k c c1 c2 H1 [->|[-> ->]]; [exact H1|]. right. split; [exact Hl|split; [exact Ho|]].
      destruct H1 as [->|(_ & _ & ->)]; reflexivity.
    - apply evolves_updc; [now left|]. intros c _. split; [reflexivity|]. right. now split. }
  eapply evolves_weaken; [|apply HR; [|apply evolves_refl; now left]].
  - intros k c c' [->|(Hl & Ho & ->)]; [apply crel_same, csame_refl|].
    exact (crel_cupd _ _ _ _ _ _ (CR_cop _ _ _ _ _ id o en eq_refl Ho Hf Hl)).
  - intros j Hj.
    assert (Hall : In j (e_inactive en ++ [e_active en])) by (destruct o; [apply filter_In in Hj; tauto|exact Hj]).
    split; [apply in_app_or in Hall as [?|[<-|[]]]; [now right|now left]|].
    destruct o as [k|]; [right|now left]. apply filter_In in Hj as [_ Hj]. apply N.eqb_eq in Hj. now subst.
Qed.

Definition spawned (e : event) : list conn :=
  match e with ESpawn id ver => [new_conn id ver] | _ => [] end.

(* What [step_body] does: [evolves (crel cfg s e)] but for the connection a spawn appends.  The
   clock stands still here; [step] ticks it afterwards. *)
Record srel (cfg : cfg) (s : state) (e : event) (s' : state) : Prop := mkSrel {
  sr_clock : clock s' = clock s;
  sr_ids : ids s' = ids s ++ map c_id (spawned e);
  sr_reg : reg_ok s -> reg_ok s';
  sr_conn : forall k c', getc s' k = Some c' ->
    (exists c, getc s k = Some c /\ crel cfg s e k c c') \/ In c' (spawned e)
}.

Lemma srel_evolves cfg s e s' : spawned e = [] -> evolves (crel cfg s e) s s' -> srel cfg s e s'.
Proof.
  intros E (C & L & G & H). split; [exact C|now rewrite E, app_nil_r|exact G|].
  intros k c' Hg. left. exact (H k c' Hg).
Qed.

Lemma step_body_srel cfg s e : srel cfg s e (step_body cfg s e).
Proof.
  pose proof (evolves_crel_refl cfg s e) as Hs. pose proof (evolves_crel_updc cfg s e) as Hu.
  destruct e as [id ver|k|k raw|k|k|k|k|k|id o|k|k|k]; cbn [step_body].
  1: { split; [reflexivity|apply map_app| |].
       - intros HR e He j Hj. unfold ids. cbn [conns]. rewrite map_app. exact (nth_error_app_some _ _ _ _ (HR e He j Hj)).
       - intros k c'. unfold getc at 1. cbn [conns]. intros Hg.
         destruct (Nat.lt_ge_cases (N.to_nat k) (length (conns s))) as [Hlt|Hge].
         + left. rewrite nth_error_app1 in Hg by exact Hlt. exists c'. split; [exact Hg|apply crel_same, csame_refl].
         + right. rewrite nth_error_app2 in Hg by exact Hge. exact (nth_error_In _ _ Hg). }
  all: apply srel_evolves; [reflexivity|].
  8: apply evolves_do_disconnect.
  (* every other event is one of connection k, and nothing happens if there is none *)
  all: destruct (getc s k) as [c|] eqn:Hg; [|exact Hs].
  - destruct (c_ins c); [exact Hs|].
    apply (evolves_weaken (fun _ => csame)); [intros j; apply crel_same|now apply nsame_do_insert].
  - destruct (is_running c) eqn:Hr; [|exact Hs]. apply running_phase in Hr.
    assert (Hbad : (forall m, decode (valid cfg) raw <> Ok m) ->
              evolves (crel cfg s (ERecv k raw)) s (flag (updc s k (with_exit COwnFrame)) B_BADFRAME)).
    { intros Hno. apply evolves_flag, (Hu k c _ Hg), crel_cupd, (CR_exit _ _ _ _ _ COwnFrame); [exact Hr| |discriminate..].
      right. right. left. eauto. }
    unfold handle_frame. destruct (decode (valid cfg) raw) as [[dst d|p|p]|?|] eqn:Hd.
    + destruct (forwardable d) eqn:Hfw; [|apply evolves_flag, Hs].
      unfold send_packet.
      destruct (find_entry dst (reg s)) as [en|] eqn:Hf; [|apply evolves_flag, Hs].
      destruct (getc s (e_active en)) as [ca|] eqn:Ha; [|exact Hs].
      unfold q_try. destruct (is_open ca) eqn:Ho; cbn [negb].
      * destruct (len (c_pq ca) <? eff_cap cfg); [|apply evolves_flag, Hs].
        apply evolves_set_sent, (Hu _ ca _ Ha), crel_cupd.
        apply (CR_push _ _ _ _ _ dst (c_id c) d); [exists k, raw, c, en; auto 8|exact Hfw].
      * apply evolves_flag, (Hu _ ca _ Ha), crel_cupd, CR_cint.
        unfold is_open in Ho. destruct (c_phase ca); [discriminate Ho..|reflexivity].
    + apply (Hu k c _ Hg), crel_cupd, (CR_ctrl _ _ _ _ _ (FPong p)). discriminate.
    + exact Hs.
    + apply Hbad. discriminate.
    + apply Hbad. discriminate.
  - destruct (is_running c) eqn:Hr; [|exact Hs]. apply running_phase in Hr.
    apply (Hu k c _ Hg), crel_cupd, (CR_exit _ _ _ _ _ COwnClose); [exact Hr|now left|discriminate..].
  - destruct (is_running c) eqn:Hr; [|exact Hs]. apply running_phase in Hr.
    apply (Hu k c _ Hg), crel_cupd, (CR_exit _ _ _ _ _ COwnSocket); [exact Hr|right; now left|discriminate..].
  - destruct (is_running c); [|exact Hs].
    apply (Hu k c _ Hg), crel_cupd, (CR_ctrl _ _ _ _ _ FPing). discriminate.
  - destruct (is_running c); [|exact Hs].
    destruct (c_pq c) as [|p q] eqn:Hpq; [exact Hs|].
    destruct (sink_ok (p_dg p)) eqn:Hp; apply evolves_flag, (Hu k c _ Hg), crel_cupd.
    + exact (CR_write _ _ _ _ _ p q Hpq Hp).
    + exact (CR_refuse _ _ _ _ _ p q Hpq Hp).
  - destruct (is_running c); [|exact Hs].
    destruct (c_mq c) as [|m q]; [exact Hs|].
    apply (Hu k c _ Hg). exists (with_out (c_out c ++ [frame_of_msg m]) c).
    split; [apply CR_ctrl; destruct m; discriminate|repeat split].
  - destruct (is_running c) eqn:Hr; cbn [andb]; [|exact Hs]. apply running_phase in Hr.
    destruct (c_cop c || c_cint c) eqn:Hc; [|exact Hs].
    apply evolves_flag, (Hu k c _ Hg), crel_cupd. exact (CR_cancel _ _ _ _ _ Hr Hc).
  - destruct (c_phase c) eqn:Hp; try exact Hs. now apply evolves_do_unregister.
  - destruct (c_phase c) eqn:Hp; try exact Hs.
    apply (Hu k c _ Hg), crel_cupd, (CR_phase _ _ _ _ _ Dropped); congruence.
Qed.

Lemma clock_step cfg s e : clock (step cfg s e) = clock s + 1.
Proof. unfold step. cbn [clock tick]. f_equal. exact (sr_clock _ _ _ _ (step_body_srel cfg s e)). Qed.

Lemma step_conn cfg s e k c' :
  getc (step cfg s e) k = Some c' ->
  (exists c, getc s k = Some c /\ crel cfg s e k c c') \/ exists id ver, c' = new_conn id ver.
Proof.
  intros Hg. destruct (sr_conn _ _ _ _ (step_body_srel cfg s e) k c' Hg) as [Hc|Hin]; [now left|right].
  destruct e; try contradiction. destruct Hin as [<-|[]]. eauto.
Qed.

Lemma ids_step cfg s e : ids (step cfg s e) = ids s ++ map c_id (spawned e).
Proof. exact (sr_ids _ _ _ _ (step_body_srel cfg s e)). Qed.

(* What makes [no_collateral] go through.  The three ways another client could end k are shut one
   by one: a queue holds only packets its sink takes ([i_pq]: the sender tested [forwardable]), so
   CR_refuse does not fire; a sender's cancellation reaches only a connection already dropped
   ([i_cint]), so a CR_cancel of a running one is the operator's; and with these the two collateral
   causes are never recorded ([i_whyok]).  [i_own]: the operator sets its token by a disconnect
   naming k or k's id, which is an own event. *)
Record cinv (vld : bytes -> bool) (t : list event) (k : N) (c : conn) : Prop := mkCinv {
  i_pq : Forall (fun p => sink_ok (p_dg p) = true) (c_pq c);
  i_cint : c_cint c = true -> c_phase c = Dropped;
  i_own : c_cop c = true \/ c_phase c <> Running -> exists e, In e t /\ own_event vld k (c_id c) e;
  i_whyok : c_why c <> Some CPktWrite /\ c_why c <> Some CPeerCancel
}.

Lemma cinv_weaken vld t e k c : cinv vld t k c -> cinv vld (t ++ [e]) k c.
Proof.
  intros [H1 H2 H3 H4]. split; auto.
  intros Hp. destruct (H3 Hp) as (e0 & Hin & Ho). exists e0. split; [apply in_or_app; auto|auto].
Qed.

Lemma cinv_csame vld t k c c' : csame c c' -> cinv vld t k c -> cinv vld t k c'.
Proof.
  intros (E1 & E2 & _ & E4 & E5 & E6 & E7) [H1 H2 H3 H4].
  split; rewrite ?E1, ?E2, ?E4, ?E5, ?E6, ?E7; assumption.
Qed.

Ltac conn_simpl :=
  cbn [c_id c_ver c_ins c_phase c_why c_cop c_cint c_pq c_mq c_out
       with_pq with_mq with_out with_phase with_exit with_cop with_cint with_ins].

Lemma cinv_step cfg t e s k c c' :
  reg_ok s -> getc s k = Some c -> cinv (valid cfg) t k c -> crel cfg s e k c c' ->
  cinv (valid cfg) (t ++ [e]) k c'.
Proof.
  intros HR Hg Hc (c1 & Hrel & H). apply (cinv_csame _ _ _ _ _ H). clear H c'.
  apply (cinv_weaken _ _ e) in Hc. destruct Hc as [I1 I2 I3 I4].
  destruct Hrel as [|x Hx|dst src d Hrt Hfw|p q Hq Hp|p q Hq Hp
                   |w Hph Hown Hw1 Hw2|Hph Hcc|ph Hp1 Hp2|id o en He Ho Hf Hl|Hph];
    [| | | |exfalso; rewrite Hq in I1; apply Forall_inv in I1; congruence|..];
    split; conn_simpl; auto.
  - apply Forall_app. split; [exact I1|]. rewrite forwardable_iff_sink_ok in Hfw. now repeat constructor.
  - rewrite Hq in I1. exact (Forall_inv_tail I1).
  - intros Hc. apply I2 in Hc. congruence.
  - (* the actor's own event is the last of the trace *)
    intros _. exists e. split; [apply in_elt|exact Hown].
  - split; congruence.
  - intros Hc. apply I2 in Hc. congruence.
  - (* cancelled while running: the token was set by the operator *)
    intros _. apply I3. left. destruct (c_cint c); [rewrite (I2 eq_refl) in Hph; discriminate Hph|].
    now rewrite orb_false_r in Hcc.
  - destruct (c_cint c); [rewrite (I2 eq_refl) in Hph; discriminate Hph|]. rewrite orb_false_r in Hcc.
    rewrite Hcc. split; discriminate.
  - intros Hc. apply I2 in Hc. congruence.
  - (* the entry that lists k is the entry of k's id *)
    intros _. exists e. split; [apply in_elt|]. right. right. right. exists o.
    rewrite (reg_ok_id _ _ _ _ _ HR Hf Hl Hg). exact (conj He Ho).
Qed.

Lemma reg_ok_run cfg t : reg_ok (run cfg t).
Proof.
  pattern t, (run cfg t). apply run_ind; [intros e []|]. intros t' e.
  exact (sr_reg _ _ _ _ (step_body_srel cfg (run cfg t') e)).
Qed.

Definition allc (P : N -> conn -> Prop) (s : state) : Prop :=
  forall k c, getc s k = Some c -> P k c.

(* A property of every connection along a run holds of a new connection and is kept by every
   update a step can make; there is no connection at the start. *)
Lemma run_conn_ind cfg (Q : list event -> N -> conn -> Prop) :
  (forall t k id ver, Q t k (new_conn id ver)) ->
  (forall t e k c c', reg_ok (run cfg t) -> getc (run cfg t) k = Some c -> Q t k c ->
     crel cfg (run cfg t) e k c c' -> Q (t ++ [e]) k c') ->
  forall t, allc (Q t) (run cfg t).
Proof.
  intros Hn Hs. apply (run_ind cfg (fun t s => allc (Q t) s)).
  - intros k c Hg. now rewrite getc_init in Hg.
  - intros t e IH k c' Hg. destruct (step_conn _ _ _ _ _ Hg) as [(c & Hc & Hrel)|(id & ver & ->)].
    + exact (Hs t e k c c' (reg_ok_run cfg t) Hc (IH k c Hc) Hrel).
    + apply Hn.
Qed.

Lemma cinv_run cfg t : allc (cinv (valid cfg) t) (run cfg t).
Proof.
  revert t. apply run_conn_ind.
  - intros t k id ver. split; cbn; try discriminate; [constructor|intros [H|H]; congruence|split; discriminate].
  - intros t e k c c'. apply cinv_step.
Qed.

Lemma no_collateral cfg t k c :
  getc (run cfg t) k = Some c -> c_phase c <> Running ->
  exists e, In e t /\ own_event (valid cfg) k (c_id c) e.
Proof. intros Hg Hp. exact (i_own _ _ _ _ (cinv_run cfg t k c Hg) (or_intror Hp)). Qed.

Lemma queued_packets_sendable cfg t k c :
  getc (run cfg t) k = Some c -> Forall (fun p => sink_ok (p_dg p) = true) (c_pq c).
Proof. intros Hg. exact (i_pq _ _ _ _ (cinv_run cfg t k c Hg)). Qed.

Lemma write_keeps_phase cfg t k j c :
  getc (run cfg t) j = Some c ->
  exists c', getc (step cfg (run cfg t) (EWritePkt k)) j = Some c' /\ c_phase c' = c_phase c.
Proof.
  intros Hg. unfold step, step_body.
  destruct (getc (run cfg t) k) as [ck|] eqn:Hk; [|eauto].
  destruct (is_running ck); [|eauto].
  (* k's queue is empty, or its head passes the sink *)
  destruct (queued_packets_sendable cfg t k ck Hk) as [|p q Hs _]; [eauto|].
  rewrite Hs.
  eexists. split; [apply getc_updc_some; exact Hg|].
  destruct (j =? k); reflexivity.
Qed.

Lemma writes_never_fail cfg t k c :
  getc (run cfg t) k = Some c -> c_phase c = Running ->
  exists c', getc (step cfg (run cfg t) (EWritePkt k)) k = Some c' /\ c_phase c' = Running.
Proof. intros Hg <-. now apply write_keeps_phase. Qed.

Lemma only_dead_cancelled cfg t k c :
  getc (run cfg t) k = Some c -> c_cint c = true -> c_phase c = Dropped.
Proof. intros Hg. exact (i_cint _ _ _ _ (cinv_run cfg t k c Hg)). Qed.

Lemma exit_causes cfg t k c :
  getc (run cfg t) k = Some c -> c_why c <> Some CPktWrite /\ c_why c <> Some CPeerCancel.
Proof. intros Hg. exact (i_whyok _ _ _ _ (cinv_run cfg t k c Hg)). Qed.

(* events the scheduler adds on its own *)
Definition internal (e : event) : Prop :=
  match e with
  | EUnregister _ | EDrop _ | ECancelled _ | EWritePkt _ | EWriteMsg _ => True
  | _ => False
  end.

Lemma conn_next_internal k c e : conn_next k c = Some e -> internal e.
Proof.
  unfold conn_next. destruct (c_phase c); try (intros [= <-]; exact I); try discriminate.
  destruct (c_cop c || c_cint c); [intros [= <-]; exact I|].
  destruct (c_pq c); [|intros [= <-]; exact I].
  destruct (c_mq c); [discriminate|intros [= <-]; exact I].
Qed.

Lemma next_internal_internal l : forall k e, next_internal k l = Some e -> internal e.
Proof.
  induction l as [|c l IH]; intros k e; cbn; [discriminate|].
  destruct (conn_next k c) eqn:E.
  - intros [= <-]. eapply conn_next_internal; eauto.
  - apply IH.
Qed.

Definition erecvs (t : list event) : list (N * bytes) :=
  flat_map (fun e => match e with ERecv k raw => [(k, raw)] | _ => [] end) t.

Lemma erecvs_in t k raw : In (ERecv k raw) t -> In (k, raw) (erecvs t).
Proof. intros H. apply in_flat_map. exists (ERecv k raw). split; [exact H|now left]. Qed.

(* in a run of the schedule closes and disconnects stem from ops of the script; sockets never
   fail and no keep-alive ping is due *)
Definition justified (ops : list op) (e : event) : Prop :=
  match e with
  | EClose k => In (OClose k) ops \/ In (OErr k) ops
  | ESockFail _ | EPingTick _ => False
  | EDisconnect id None => In (ODiscId id) ops
  | EDisconnect id (Some k) => In (ODiscConn k) ops
  | _ => True
  end.

(* [x]'s log is a trace leading to its state; [idl] are the ids of its connections, [rs] the
   frames read so far; every event is justified by the script [all] *)
Record sched_inv (cfg : cfg) (all : list op) (idl : list bytes) (rs : list (N * bytes)) (x : st) : Prop := mkSched {
  s_run : fst x = run cfg (rev (snd x));
  s_ids : ids (fst x) = idl;
  s_recv : erecvs (rev (snd x)) = rs;
  s_log : forall e, In e (snd x) -> justified all e
}.

Definition op_sends (o : op) : list (N * bytes) :=
  match o with OSend k raw => [(k, raw)] | OBurst l => l | _ => [] end.

Lemma sends_flat_map ops : sends ops = flat_map op_sends ops.
Proof. induction ops as [|o ops IH]; [reflexivity|]. destruct o; cbn; try apply f_equal; exact IH. Qed.

Lemma sends_app a b : sends (a ++ b) = sends a ++ sends b.
Proof. rewrite !sends_flat_map. apply flat_map_app. Qed.

Lemma conn_ids_app a b : conn_ids (a ++ b) = conn_ids a ++ conn_ids b.
Proof. induction a as [|o a IH]; cbn; [reflexivity|]. destruct o; cbn; [apply f_equal|..]; exact IH. Qed.

Lemma sched_apply cfg all idl rs x e :
  sched_inv cfg all idl rs x -> justified all e ->
  sched_inv cfg all (idl ++ map c_id (spawned e)) (rs ++ erecvs [e]) (apply cfg x e).
Proof.
  intros [H1 H2 H3 H4] Hj. unfold apply. split; cbn [fst snd rev].
  - now rewrite run_snoc, <- H1.
  - now rewrite ids_step, H2.
  - unfold erecvs in *. rewrite flat_map_app, H3. reflexivity.
  - intros e' [<-|Hin]; auto.
Qed.

Lemma sched_quiet cfg all idl rs x e :
  sched_inv cfg all idl rs x -> justified all e -> spawned e = [] -> erecvs [e] = [] ->
  sched_inv cfg all idl rs (apply cfg x e).
Proof.
  intros H Hj E1 E2. pose proof (sched_apply _ _ _ _ _ e H Hj) as Ha.
  rewrite E1, E2, !app_nil_r in Ha. exact Ha.
Qed.

Lemma sched_internal cfg all idl rs x e :
  sched_inv cfg all idl rs x -> internal e -> sched_inv cfg all idl rs (apply cfg x e).
Proof. intros H Hi. destruct e; try contradiction; now apply sched_quiet. Qed.

Lemma sched_quiesce cfg all idl rs : forall fuel x,
  sched_inv cfg all idl rs x -> sched_inv cfg all idl rs (quiesce fuel cfg x).
Proof.
  induction fuel as [|f IH]; intros x H; cbn [quiesce]; [exact H|].
  destruct (next_internal 0 (conns (fst x))) as [e|] eqn:E; [|exact H].
  apply IH, sched_internal; [exact H|]. eapply next_internal_internal; eauto.
Qed.

Lemma sched_settle_conn cfg all idl rs k : forall fuel x,
  sched_inv cfg all idl rs x -> sched_inv cfg all idl rs (settle_conn fuel cfg k x).
Proof.
  induction fuel as [|f IH]; intros x H; cbn [settle_conn]; [exact H|].
  destruct (getc (fst x) k) as [c|]; [|exact H].
  destruct (conn_next k c) as [e|] eqn:E; [|exact H].
  apply IH, sched_internal; [exact H|]. eapply conn_next_internal; eauto.
Qed.

Lemma sched_burst cfg all idl fuel : forall l rs x,
  sched_inv cfg all idl rs x -> sched_inv cfg all idl (rs ++ l) (burst cfg fuel l x).
Proof.
  induction l as [|kr l IH]; intros rs x H; cbn [burst]; [now rewrite app_nil_r|].
  assert (Ha : sched_inv cfg all idl (rs ++ [kr]) (apply cfg x (ERecv (fst kr) (snd kr)))).
  { rewrite <- (app_nil_r idl). destruct kr as [k raw]. exact (sched_apply _ _ _ _ _ (ERecv k raw) H I). }
  replace (rs ++ kr :: l) with ((rs ++ [kr]) ++ l) by now rewrite <- app_assoc.
  destruct l as [|kr' l'].
  - rewrite app_nil_r. now apply sched_settle_conn.
  - destruct (fst kr' =? fst kr); apply IH; [exact Ha|now apply sched_settle_conn].
Qed.

Lemma sched_exec_op cfg all idl rs x o :
  In o all -> sched_inv cfg all idl rs x ->
  sched_inv cfg all (idl ++ conn_ids [o]) (rs ++ sends [o]) (exec_op cfg x o).
Proof.
  intros Ho H.
  destruct o; cbn [exec_op]; try apply sched_quiesce; cbn [sends conn_ids]; rewrite ?app_nil_r.
  - apply sched_quiet; [|exact I|reflexivity..]. rewrite <- (app_nil_r rs).
    exact (sched_apply _ _ _ _ _ (ESpawn id ver) H I).
  - apply sched_quiet; [exact H|left; exact Ho|reflexivity..].
  - apply sched_quiet; [exact H|right; exact Ho|reflexivity..].
  - rewrite <- (app_nil_r idl). exact (sched_apply _ _ _ _ _ (ERecv k raw) H I).
  - now apply sched_burst.
  - apply sched_quiet; [exact H|exact Ho|reflexivity..].
  - destruct (getc (fst x) k) as [c|]; [|exact H].
    apply sched_quiesce, sched_quiet; [exact H|exact Ho|reflexivity..].
Qed.

(* [all] stays the whole script while the induction runs over its prefixes *)
Lemma sched_exec_incl cfg all : forall pre, incl pre all ->
  sched_inv cfg all (conn_ids pre) (sends pre) (exec cfg pre).
Proof.
  induction pre as [|o pre IH] using rev_ind; intros Hi; [split; [reflexivity..|intros e []]|].
  apply incl_app_inv in Hi as [Hp Ho]. unfold exec. rewrite fold_left_app, sends_app, conn_ids_app.
  apply sched_exec_op; [apply Ho; now left|apply IH, Hp].
Qed.

(* the log of a case's run is a trace leading to its state, the connections carry the ids of
   the connects, and the frames read are the frames sent *)
Lemma sched_exec cfg ops : sched_inv cfg ops (conn_ids ops) (sends ops) (exec cfg ops).
Proof. apply sched_exec_incl, incl_refl. Qed.

Import C05.

Definition closed_only_by_own (i : C05.input) (l : list (bool * list oframe)) : Prop :=
  length l = length (conn_ids (i_ops i)) /\
  forall j id x, nth_error (conn_ids (i_ops i)) j = Some id -> nth_error l j = Some x ->
    fst x = false ->
    exists o, In o (i_ops i) /\ own_op (cfg_of i) (N.of_nat j) id o = true.

Lemma conns_ok_spec cfg ops : forall idl l k0,
  conns_ok cfg ops k0 idl l = true <->
  (length l = length idl /\
   forall j id x, nth_error idl j = Some id -> nth_error l j = Some x -> fst x = false ->
     exists o, In o ops /\ own_op cfg (k0 + N.of_nat j) id o = true).
Proof.
  induction idl as [|id idl IH]; intros [|[alive fr] l] k0; cbn [conns_ok].
  - split; [intros _; split; [reflexivity|intros [|j]; discriminate]|reflexivity].
  - split; [discriminate|intros [H _]; discriminate].
  - split; [discriminate|intros [H _]; discriminate].
  - assert (HS : forall j, k0 + 1 + N.of_nat j = k0 + N.of_nat (S j)) by (intros j; lia).
    split.
    + intros H. apply andb_prop in H as [Ha H]. apply IH in H as [Hl Hr].
      split; [cbn [length]; apply f_equal, Hl|].
      intros [|j] id' x; cbn [nth_error].
      * intros [= <-] [= <-]. cbn [fst]. intros ->. apply existsb_exists in Ha.
        rewrite N.add_0_r. exact Ha.
      * rewrite <- HS. apply Hr.
    + intros [Hl Hr]. apply andb_true_intro. split; [|apply IH; split].
      * destruct alive; [reflexivity|]. apply existsb_exists.
        rewrite <- (N.add_0_r k0). exact (Hr 0%nat id (false, fr) eq_refl eq_refl eq_refl).
      * exact (eq_add_S _ _ Hl).
      * intros j. rewrite HS. apply (Hr (S j)).
Qed.

Lemma monitor_spec i l : C05.monitor i (Ok l) = true <-> closed_only_by_own i l.
Proof. exact (conns_ok_spec _ _ _ l 0). Qed.

Lemma own_event_own_op cfg ops t k id e :
  erecvs t = sends ops -> In e t -> justified ops e -> own_event (valid cfg) k id e ->
  exists o, In o ops /\ own_op cfg k id o = true.
Proof.
  intros Hrs Hin Hj [->|[->|[(raw & -> & Hbad)|(o & -> & Ho)]]]; cbn in Hj.
  - destruct Hj as [Hj|Hj]; eexists; (split; [exact Hj|]); cbn; apply N.eqb_refl.
  - destruct Hj.
  - assert (Hd : match decode (valid cfg) raw with Ok _ => false | _ => true end = true).
    { destruct (decode (valid cfg) raw) eqn:E; auto. exfalso. eapply Hbad; eauto. }
    (* the frame was sent by a send op or in a burst *)
    apply erecvs_in in Hin. rewrite Hrs, sends_flat_map in Hin. apply in_flat_map in Hin as (o & Ho & Hin).
    exists o. split; [exact Ho|]. destruct o; try contradiction; cbn in Hin |- *.
    + destruct Hin as [[= -> ->]|[]]. now rewrite N.eqb_refl, Hd.
    + apply existsb_exists. exists (k, raw). split; [exact Hin|]. cbn. now rewrite N.eqb_refl, Hd.
  - destruct Ho as [->| ->]; eexists; (split; [exact Hj|]); cbn;
      [apply bytes_eqb_refl|apply N.eqb_refl].
Qed.

Lemma model_monitor i : C05.monitor i (C05.model i) = true.
Proof.
  unfold C05.model, C04.model. apply monitor_spec.
  set (cfg := cfg_of i). set (ops := i_ops i).
  destruct (sched_exec cfg ops) as [H1 H2 H3 H4].
  unfold closed_only_by_own, observe. fold ops cfg. rewrite <- H2. unfold ids.
  split; [now rewrite !map_length|].
  intros j id x. rewrite !nth_error_map, <- getc_of_nat, H1.
  destruct (getc _ (N.of_nat j)) as [c|] eqn:Hg; [|discriminate].
  intros [= <-] [= <-] Ho. cbn [fst] in Ho.
  destruct (no_collateral cfg _ _ _ Hg) as (e & Hin & Hown).
  { unfold is_open in Ho. destruct (c_phase c); congruence. }
  eapply own_event_own_op; eauto. apply H4. now apply in_rev.
Qed.

(* two ids and a configuration for the examples, here and in Proofs/C04.v *)
Definition idA : bytes := rep 32 1.
Definition idB : bytes := rep 32 2.
Definition wcfg : cfg := mkCfg 4 (fun _ => true).

(* A sends B an empty datagram, which B's sink refuses ([sink_still_refuses_empty]): queued, it
   would end B.  A's actor drops it: B's queue stays empty and B keeps running. *)
Example former_witness_now_harmless :
  let s := run wcfg [ESpawn idA 2; EInsert 0; ESpawn idB 2; EInsert 1;
                     ERecv 0 (4 :: idB ++ [0]); EWritePkt 1] in
  option_map (fun c => (c_phase c, c_pq c)) (getc s 1) = Some (Running, []).
Proof. vm_compute. reflexivity. Qed.

Example sink_still_refuses_empty : sink_ok (mkDg 0 None []) = false.
Proof. reflexivity. Qed.

(* non-vacuity, two examples: a delivery; a connection ended by its own close *)
Example delivery_happens :
  let s := run wcfg [ESpawn idA 2; EInsert 0; ESpawn idB 2; EInsert 1;
                     ERecv 0 (4 :: idB ++ [2; 7; 8]); EWritePkt 1] in
  option_map (fun c => map obs_frame (c_out c)) (getc s 1) = Some [OD idA 2 None [7; 8]].
Proof. vm_compute. reflexivity. Qed.

Example own_close_ends :
  let s := run wcfg [ESpawn idA 2; EInsert 0; EClose 0; EUnregister 0; EDrop 0] in
  option_map c_phase (getc s 0) = Some Dropped /\ reg s = [].
Proof. vm_compute. split; reflexivity. Qed.

(* The decoder's bound does not imply the sender's test.  Contents of MAX-33 bytes pass [decode]
   (its [len c] leaves out the type byte: 32 + 1 + (MAX-33) = MAX); the sink refuses them, which
   is what is shown here (encoded_len counts the type byte). *)
Lemma decoder_sink_gap (data : bytes) :
  len data = MAX_PACKET_SIZE - 33 -> sink_ok (mkDg 0 None data) = false.
Proof.
  intros H. unfold sink_ok, relayed_len. cbn [d_seg d_data]. rewrite H.
  unfold MAX_PACKET_SIZE. reflexivity.
Qed.
