(* C40: the router hands a connection to the LAST handler registered for the negotiated ALPN,
   and only after the filter admitted it; a case logs exactly what [dispatch] returns. *)
From V Require Import Lib.Base Lib.Lists Model.C40.
Import C40.
Open Scope N_scope.

Lemma alpn_eqb_iff (x y : alpn) : alpn_eqb x y = true <-> x = y.
Proof. apply bytes_eqb_iff. Qed.

Lemma alpn_eqb_spec (x y : alpn) : reflect (x = y) (alpn_eqb x y).
Proof. apply iff_reflect. symmetry. apply alpn_eqb_iff. Qed.

Lemma alpn_eqb_refl (x : alpn) : alpn_eqb x x = true.
Proof. apply bytes_eqb_refl. Qed.

(* [bytes_ltb x y] computes [negb (lex_le y x)], the order of Lib.Lists; the two laws below do not go
   through it, each being a short induction *)
Lemma bytes_ltb_irrefl x : bytes_ltb x x = false.
Proof. induction x as [|a x IH]; cbn [bytes_ltb]; [reflexivity|]. rewrite N.ltb_irrefl, N.eqb_refl. exact IH. Qed.

Lemma bytes_ltb_total x : forall y, x <> y -> bytes_ltb x y = true \/ bytes_ltb y x = true.
Proof.
  induction x as [|a x IH]; intros [|b y] H; cbn [bytes_ltb]; auto; try congruence.
  destruct (N.ltb_spec a b); [auto|]. destruct (N.eqb_spec a b) as [->|Hn].
  - rewrite N.ltb_irrefl, N.eqb_refl. apply IH. congruence.
  - right. destruct (N.ltb_spec b a); [reflexivity|lia].
Qed.

(* the position, counted from k, of the LAST entry equal to a; the accumulator when there is none *)
Lemma lookup_from_view a rs : forall k found,
  (lookup_from k a rs found = found /\ ~ In a rs) \/
  exists j, lookup_from k a rs found = Some (k + N.of_nat j) /\ nth_error rs j = Some a /\
            forall j', (j < j')%nat -> nth_error rs j' <> Some a.
Proof.
  induction rs as [|x r IH]; intros k found; cbn [lookup_from]; [left; auto|].
  destruct (IH (k + 1) (if alpn_eqb x a then Some k else found)) as [[E Hn]|(j & E & Hj & Hl)]; rewrite E.
  - destruct (alpn_eqb_spec x a) as [->|Hx].
    + right. exists 0%nat. rewrite N.add_0_r. split; [reflexivity|]. split; [reflexivity|].
      intros [|j'] Hj' H; [lia|]. exact (Hn (nth_error_In r j' H)).
    + left. split; [reflexivity|]. intros [H|H]; auto.
  - right. exists (S j). split; [f_equal; lia|]. split; [exact Hj|].
    intros [|j'] Hj'; [lia|]. apply Hl. lia.
Qed.

Lemma lookup_some a rs h :
  lookup a rs = Some h ->
  nth_error rs (N.to_nat h) = Some a /\ forall j, (N.to_nat h < j)%nat -> nth_error rs j <> Some a.
Proof.
  unfold lookup. destruct (lookup_from_view a rs 0 None) as [[-> _]|(j & -> & H)]; [discriminate|].
  intros [= <-]. now rewrite N.add_0_l, Nat2N.id.
Qed.

Lemma lookup_none a rs : lookup a rs = None -> ~ In a rs.
Proof.
  unfold lookup. destruct (lookup_from_view a rs 0 None) as [[_ H]|(j & -> & _)]; [auto|discriminate].
Qed.

Lemma handler_iff_registered_and_admitted rs adm neg h :
  dispatch rs adm neg = Some h <->
  adm = AdmOk /\ exists a, neg = Some a /\ lookup a rs = Some h.
Proof.
  unfold dispatch. split.
  - destruct adm; try discriminate. destruct neg as [a|]; [|discriminate]. eauto.
  - intros (-> & a & -> & H). exact H.
Qed.

Lemma no_handler_cases rs adm neg :
  dispatch rs adm neg = None <->
  adm <> AdmOk \/ neg = None \/ exists a, neg = Some a /\ lookup a rs = None.
Proof.
  unfold dispatch. split.
  - destruct adm; [|left; discriminate..]. destruct neg as [a|]; [|auto]. eauto.
  - intros [H|[->|(a & -> & H)]]; destruct adm; auto; try contradiction; try (now destruct neg).
Qed.

Lemma retry_needs_second_accept rs v2 neg h :
  dispatch rs (snd (filter_phase (Some (VRetry, v2)))) neg = Some h ->
  v2 = VAccept /\ fst (filter_phase (Some (VRetry, v2))) = [false; true].
Proof. destruct v2; cbn; try discriminate. auto. Qed.

Lemma filter_admits f :
  snd (filter_phase f) = AdmOk <->
  f = None \/ (exists v2, f = Some (VAccept, v2)) \/ f = Some (VRetry, VAccept).
Proof.
  split.
  - destruct f as [[[] []]|]; cbn; try discriminate; eauto.
  - intros [E|[[v2 E]|E]]; subst f; reflexivity.
Qed.

Lemma mem_In a l : mem a l = true <-> In a l.
Proof. apply (mem_iff _ alpn_eqb_iff). Qed.

(* the assumed negotiation only ever yields a protocol both sides have *)
Lemma negotiate_sound server offered a :
  negotiate server offered = Some a -> In a server /\ In a offered.
Proof.
  unfold negotiate. intros H. apply find_some in H as [H1 H2]. split; [assumption|].
  exact (proj1 (mem_In a offered) H2).
Qed.

Definition hlog (o : out) : list (N * option alpn) := snd (fst o).

Lemma hlog_run_case i :
  hlog (run_case i) =
  match dispatch (regs i) (snd (filter_phase (filter i))) (negotiate (ep_alpns i) (offer i)) with
  | Some h => [(h, negotiate (ep_alpns i) (offer i))]
  | None => []
  end.
Proof.
  unfold run_case, hlog. destruct (filter_phase (filter i)) as [flog []]; cbn [snd]; try reflexivity.
  destruct (negotiate (ep_alpns i) (offer i)) as [a|]; [|reflexivity].
  now destruct (dispatch (regs i) AdmOk (Some a)).
Qed.

Lemma run_case_handler i h a :
  In (h, a) (hlog (run_case i)) <->
  snd (filter_phase (filter i)) = AdmOk /\
  exists a', a = Some a' /\ negotiate (ep_alpns i) (offer i) = Some a' /\ lookup a' (regs i) = Some h.
Proof.
  rewrite hlog_run_case.
  destruct (dispatch (regs i) _ (negotiate (ep_alpns i) (offer i))) as [h'|] eqn:D.
  - apply handler_iff_registered_and_admitted in D as (A & a' & Ng & L). cbn [In]. split.
    + intros [[= <- <-]|[]]. eauto.
    + intros (_ & a2 & -> & Ng2 & L2). left. congruence.
  - split; [intros []|]. intros (A & a' & _ & Ng & L).
    rewrite (proj2 (handler_iff_registered_and_admitted _ _ _ h)) in D by eauto. discriminate.
Qed.

Lemma run_case_at_most_one i : (length (hlog (run_case i)) <= 1)%nat.
Proof. rewrite hlog_run_case. destruct (dispatch _ _ _); cbn [length]; lia. Qed.

Lemma admitted_by_model_log f :
  snd (filter_phase f) = AdmOk -> admitted_by_log f (fst (filter_phase f)) = true.
Proof. destruct f as [[[] []]|]; cbn; try discriminate; reflexivity. Qed.

Lemma model_monitor i : monitor i (model i) = true.
Proof.
  unfold model, monitor, run_case.
  pose proof (admitted_by_model_log (filter i)) as Fa.
  destruct (filter_phase (filter i)) as [flog adm]. cbn [fst snd] in Fa.
  destruct adm; try reflexivity.
  destruct (negotiate (ep_alpns i) (offer i)) as [a|] eqn:Ng; [|reflexivity].
  cbn [dispatch]. destruct (lookup a (regs i)) as [h|] eqn:L.
  - cbn [forallb fst snd andb]. rewrite L. cbn [opt_eqb]. rewrite N.eqb_refl.
    destruct (negotiate_sound _ _ _ Ng) as [_ Ho].
    rewrite (proj2 (mem_In a (offer i)) Ho), Fa by reflexivity. cbn [andb list_eqb].
    unfold hentry_eqb, oN_eqb. cbn [fst snd]. now rewrite N.eqb_refl, (opt_eqb_refl _ alpn_eqb_refl).
  - cbn [forallb andb]. rewrite L. reflexivity.
Qed.

Definition nA : alpn := str_bytes "/c40/a".
Definition nB : alpn := str_bytes "/c40/b".
Definition nC : alpn := str_bytes "/c40/c".
Definition nD : alpn := str_bytes "/c40/d".
Definition nX : alpn := hex "ff61".          (* not valid UTF-8 *)
Definition nL : alpn := hex "efbfbd61".      (* the U+FFFD rendering of nX *)
Definition nAb : alpn := str_bytes "/c40/ab". (* nA is a proper prefix *)

Example ex_replace : (* a later registration of the same ALPN replaces the earlier one *)
  run_case (mkIn [nC; nA; nC] None None [nC]) = ([], [(2, Some nC)], DGreeted 2 (Some nC)).
Proof. vm_compute. reflexivity. Qed.

Example ex_retry_accept :
  run_case (mkIn [nA; nB] None (Some (VRetry, VAccept)) [nB]) = ([false; true], [(1, Some nB)], DGreeted 1 (Some nB)).
Proof. vm_compute. reflexivity. Qed.

Example ex_retry_retry :
  run_case (mkIn [nA] None (Some (VRetry, VRetry)) [nA]) = ([false; true], [], DRefused).
Proof. vm_compute. reflexivity. Qed.

Example ex_unregistered_negotiated :
  run_case (mkIn [nA; nB] (Some [nA; nB; nD]) None [nD]) = ([], [], DDropped (Some nD)).
Proof. vm_compute. reflexivity. Qed.

(* a non-UTF-8 ALPN and its U+FFFD rendering are two different protocols *)
Example ex_binary_alpn :
  run_case (mkIn [nX; nL] None None [nX]) = ([], [(0, Some nX)], DGreeted 0 (Some nX)) /\
  run_case (mkIn [nX; nL] None None [nL]) = ([], [(1, Some nL)], DGreeted 1 (Some nL)) /\
  run_case (mkIn [nL] (Some [nL; nX]) None [nX]) = ([], [], DDropped (Some nX)).
Proof. vm_compute. auto. Qed.

(* a name and a proper prefix of it are different protocols; the prefix sorts first *)
Example ex_prefix :
  keys [nAb; nX; nA; nL; nAb] = [nA; nAb; nL; nX] /\
  run_case (mkIn [nAb; nA] None None [nAb; nA]) = ([], [(1, Some nA)], DGreeted 1 (Some nA)) /\
  run_case (mkIn [nAb] None None [nA]) = ([], [], DHandshake).
Proof. vm_compute. auto. Qed.

Example mon_rejects :
  (* handed to the handler of another protocol *)
  monitor (mkIn [nA; nB] None None [nB]) (Ok ([], [(0, Some nB)], DGreeted 0 (Some nB))) = false /\
  (* a binary ALPN handed to the handler registered under its U+FFFD rendering *)
  monitor (mkIn [nX; nL] None None [nX]) (Ok ([], [(1, Some nX)], DGreeted 1 (Some nX))) = false /\
  (* a registered binary ALPN dropped without a handler *)
  monitor (mkIn [nX] None None [nX]) (Ok ([], [], DDropped (Some nX))) = false /\
  (* handler reached although the filter rejected the validated retry *)
  monitor (mkIn [nA] None (Some (VRetry, VReject)) [nA]) (Ok ([false; true], [(0, Some nA)], DGreeted 0 (Some nA))) = false /\
  (* handler reached although the filter refused *)
  monitor (mkIn [nA] None (Some (VReject, VAccept)) [nA]) (Ok ([false], [(0, Some nA)], DRefused)) = false /\
  (* two handlers for one connection *)
  monitor (mkIn [nA; nB] None None [nA; nB]) (Ok ([], [(0, Some nA); (1, Some nB)], DGreeted 0 (Some nA))) = false /\
  (* registered protocol, admitted, but dropped without a handler *)
  monitor (mkIn [nA] None None [nA]) (Ok ([], [], DDropped (Some nA))) = false.
Proof. vm_compute. repeat split. Qed.
