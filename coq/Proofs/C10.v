(* C10 — relay frame codecs.  An encoding is the type byte followed by the payload and its
   predicted length is exact; what the decoder makes of an encoding is characterised completely
   ([r2c_decode_encode], [c2r_decode_encode]), from which the round trips, the version gate and
   "what a sink accepts the peer decodes" follow; decoding never panics on bytes.  The monitor's
   encoder clauses are read as propositions ([enc_spec]). *)
From V Require Import Lib.Base Lib.Lists Lib.MachineInt Lib.Varint Model.C16 Model.C10.
From V Require Import Lib.LiaBool.
Import C10.
Open Scope N_scope.

Lemma bytes_ok_app a b : bytes_ok (a ++ b) = bytes_ok a && bytes_ok b.
Proof. unfold bytes_ok, Varint.bytes_ok. apply forallb_app. Qed.

Lemma bind_ok {A B} (x : res A) (f : A -> res B) a : x = Ok a -> bind x f = f a.
Proof. intros ->. reflexivity. Qed.

Lemma slice_to_ok b n : n <= len b -> slice_to b n = Ok (firstn (N.to_nat n) b).
Proof. intros H. unfold slice_to. destruct (N.leb_spec n (len b)); [reflexivity|lia]. Qed.

Lemma slice_from_ok b n : n <= len b -> slice_from b n = Ok (skipn (N.to_nat n) b).
Proof. intros H. unfold slice_from. destruct (N.leb_spec n (len b)); [reflexivity|lia]. Qed.

Lemma slice_to_app k r n : len k = n -> slice_to (k ++ r) n = Ok k.
Proof.
  intros H. rewrite slice_to_ok by (rewrite len_app; lia).
  now rewrite firstn_app_length by (unfold len in H; lia).
Qed.

Lemma slice_from_app k r n : len k = n -> slice_from (k ++ r) n = Ok r.
Proof.
  intros H. rewrite slice_from_ok by (rewrite len_app; lia).
  now rewrite skipn_app_length by (unfold len in H; lia).
Qed.

Lemma ft_write_to_ok t : ft_write_to t = Ok [ft_code t].
Proof. destruct t; reflexivity. Qed.

Lemma ft_encoded_len_ok t : ft_encoded_len t = Ok 1.
Proof. destruct t; reflexivity. Qed.

Lemma ft_from_bytes_code t rest : ft_from_bytes (ft_code t :: rest) = Ok (t, rest).
Proof. destruct t; reflexivity. Qed.

Lemma ft_from_bytes_no_panic b : bytes_ok b = true -> ft_from_bytes b <> Panic.
Proof.
  intros H. unfold ft_from_bytes.
  pose proof (Varint.decode_no_panic b H) as Hd.
  destruct (Varint.decode b) as [[tag rest]|e|]; [|discriminate|congruence].
  destruct (tag <=? U32_MAX); [|discriminate].
  destruct (ft_from_repr tag); discriminate.
Qed.

(* the frame type consumes 1, 2, 4 or 8 bytes: whatever follows is what the decoders call `content` *)
Lemma ft_from_bytes_shape b t rest :
  ft_from_bytes b = Ok (t, rest) ->
  exists p, b = p ++ rest /\ (length p = 1 \/ length p = 2 \/ length p = 4 \/ length p = 8)%nat.
Proof.
  unfold ft_from_bytes. destruct (Varint.decode b) as [[tag r]|e|] eqn:E; try discriminate.
  destruct (tag <=? U32_MAX); [|discriminate].
  destruct (ft_from_repr tag); [|discriminate].
  intros [= _ <-]. now apply Varint.decode_shape in E.
Qed.

Lemma r2c_encoded_len_ok m : r2c_encoded_len m = Ok (1 + r2c_payload_len m).
Proof. unfold r2c_encoded_len. now rewrite ft_encoded_len_ok. Qed.

Lemma r2c_to_bytes_ok m : r2c_to_bytes m = Ok (ft_code (r2c_typ m) :: r2c_payload m).
Proof.
  unfold r2c_to_bytes. rewrite r2c_encoded_len_ok. cbn [bind].
  unfold r2c_write_to. now rewrite ft_write_to_ok.
Qed.

Lemma c2r_encoded_len_ok m : c2r_encoded_len m = Ok (1 + c2r_payload_len m).
Proof. unfold c2r_encoded_len. now rewrite ft_encoded_len_ok. Qed.

Lemma c2r_to_bytes_ok m : c2r_to_bytes m = Ok (ft_code (c2r_typ m) :: c2r_payload m).
Proof.
  unfold c2r_to_bytes. rewrite c2r_encoded_len_ok. cbn [bind].
  unfold c2r_write_to. now rewrite ft_write_to_ok.
Qed.

Lemma dg_len d : len (dg_write_to d) = dg_encoded_len d.
Proof.
  unfold dg_write_to, dg_encoded_len. rewrite !len_app.
  destruct (C16.seg d); rewrite ?Varint.be_bytes_len; unfold len; cbn [length]; lia.
Qed.

Lemma typed_key_parts ip k : typed_key ip k = true -> len k = 32 /\ bytes_ok k = true /\ ip k = true.
Proof.
  unfold typed_key, KEY_LEN. intros H. apply andb_prop in H as [H Hp]. apply andb_prop in H as [Hl Hb].
  apply N.eqb_eq in Hl. auto.
Qed.

Lemma typed_data8_parts d : typed_data8 d = true -> len d = 8 /\ bytes_ok d = true.
Proof. unfold typed_data8. now rewrite andb_true_iff, N.eqb_eq. Qed.

Lemma r2c_payload_len_ok ip m : typed_r2c ip m = true -> len (r2c_payload m) = r2c_payload_len m.
Proof.
  destruct m as [k d|k|s|a b|d|d|p]; cbn [typed_r2c r2c_payload r2c_payload_len]; intros H.
  - apply andb_prop in H as [Hk _]. apply typed_key_parts in Hk as (Hk & _). rewrite len_app, dg_len. lia.
  - now apply typed_key_parts in H as (Hk & _).
  - reflexivity.
  - rewrite len_app, !Varint.be_bytes_len. reflexivity.
  - now apply typed_data8_parts in H.
  - now apply typed_data8_parts in H.
  - reflexivity.
Qed.

Lemma typed_dg_bytes d : typed_dg d = true -> bytes_ok (dg_write_to d) = true.
Proof.
  unfold typed_dg, dg_write_to. intros H. apply andb_prop in H as [H Hc]. apply andb_prop in H as [He Hs].
  rewrite !bytes_ok_app, Hc, andb_true_r.
  apply andb_true_intro; split.
  - cbn. rewrite andb_true_r. lia.
  - destruct (C16.seg d); [apply Varint.be_bytes_ok|reflexivity].
Qed.

Lemma r2c_payload_bytes ip m : typed_r2c ip m = true -> bytes_ok (r2c_payload m) = true.
Proof.
  destruct m as [k d|k|s|a b|d|d|p]; cbn [typed_r2c r2c_payload]; intros H.
  - apply andb_prop in H as [Hk Hd]. apply typed_key_parts in Hk as (_ & Hk & _).
    rewrite bytes_ok_app, Hk. now apply typed_dg_bytes.
  - now apply typed_key_parts in H as (_ & Hk & _).
  - destruct s; try reflexivity. cbn. rewrite andb_true_r. exact H.
  - rewrite bytes_ok_app. unfold bytes_ok. now rewrite !Varint.be_bytes_ok.
  - now apply typed_data8_parts in H.
  - now apply typed_data8_parts in H.
  - now apply andb_prop in H as [H _].
Qed.

(* a client message has the payload and the typing of the relay message of the same shape *)
Lemma c2r_payload_len_ok ip m : typed_c2r ip m = true -> len (c2r_payload m) = c2r_payload_len m.
Proof.
  destruct m as [d|d|k d];
    [apply (r2c_payload_len_ok ip (RPing d))|apply (r2c_payload_len_ok ip (RPong d))
    |apply (r2c_payload_len_ok ip (RDatagrams k d))].
Qed.

Lemma c2r_payload_bytes ip m : typed_c2r ip m = true -> bytes_ok (c2r_payload m) = true.
Proof.
  destruct m as [d|d|k d];
    [apply (r2c_payload_bytes ip (RPing d))|apply (r2c_payload_bytes ip (RPong d))
    |apply (r2c_payload_bytes ip (RDatagrams k d))].
Qed.

Lemma r2c_encoded_len_exact ip m :
  typed_r2c ip m = true ->
  exists b l, r2c_to_bytes m = Ok b /\ r2c_encoded_len m = Ok l /\ len b = l.
Proof.
  intros H. eexists _, _. split; [apply r2c_to_bytes_ok|]. split; [apply r2c_encoded_len_ok|].
  rewrite len_cons, (r2c_payload_len_ok ip) by exact H. lia.
Qed.

Lemma c2r_encoded_len_exact ip m :
  typed_c2r ip m = true ->
  exists b l, c2r_to_bytes m = Ok b /\ c2r_encoded_len m = Ok l /\ len b = l.
Proof.
  intros H. eexists _, _. split; [apply c2r_to_bytes_ok|]. split; [apply c2r_encoded_len_ok|].
  rewrite len_cons, (c2r_payload_len_ok ip) by exact H. lia.
Qed.

Lemma be2_roundtrip s c : s <= U16_MAX -> get_u16 (Varint.be_bytes 2 s ++ c) = Ok (s, c).
Proof.
  intros H. change (get_u16 (Varint.be_bytes 2 s ++ c)) with (Ok (Varint.be_val (Varint.be_bytes 2 s), c)).
  rewrite Varint.be_val_be_bytes; [reflexivity|]. change (256 ^ N.of_nat 2) with (U16_MAX + 1). lia.
Qed.

Definition is_batch (d : dg) : bool := match C16.seg d with Some _ => true | None => false end.

Lemma dg_roundtrip d : typed_dg d = true -> dg_from_bytes (dg_write_to d) (is_batch d) = Ok d.
Proof.
  unfold typed_dg. intros H. apply andb_prop in H as [H _]. apply andb_prop in H as [He Hs].
  apply N.ltb_lt in He. unfold dg_from_bytes. rewrite dg_len.
  destruct d as [e [s|] c]; unfold dg_write_to, dg_encoded_len, is_batch; cbn [C16.ecn C16.seg C16.contents] in *.
  - apply andb_prop in Hs as [Hs Hu]. apply N.leb_le in Hs, Hu.
    destruct (N.leb_spec 3 (1 + 2 + len c)); [|lia].
    cbn [negb app get_u8 bind]. rewrite be2_roundtrip by exact Hu. cbn [bind].
    rewrite N.mod_small by exact He. destruct (N.eqb_spec s 0); [lia|reflexivity].
  - destruct (N.leb_spec 1 (1 + 0 + len c)); [|lia].
    cbn [negb app get_u8 bind]. rewrite N.mod_small by exact He. reflexivity.
Qed.

Lemma key_from_slice_ok ip k : len k = 32 -> ip k = true -> key_from_slice ip k = Ok k.
Proof. intros Hl Hp. unfold key_from_slice, KEY_LEN. rewrite Hl, Hp. reflexivity. Qed.

Lemma datagrams_frame_roundtrip ip k d flag :
  typed_key ip k = true -> typed_dg d = true -> flag = is_batch d ->
  datagrams_frame ip (k ++ dg_write_to d) flag = Ok (k, d).
Proof.
  intros Hk Hd ->. apply typed_key_parts in Hk as (Hl & _ & Hp).
  unfold datagrams_frame, KEY_LEN. rewrite len_app, Hl.
  destruct (N.leb_spec 32 (32 + len (dg_write_to d))); [|lia].
  rewrite slice_to_app, slice_from_app by exact Hl. cbn [negb bind].
  now rewrite key_from_slice_ok, dg_roundtrip.
Qed.

Lemma ping_data_roundtrip d : typed_data8 d = true -> ping_data d = Ok d.
Proof.
  intros H. apply typed_data8_parts in H as (Hl & _). unfold ping_data. rewrite Hl, N.eqb_refl.
  rewrite <- (app_nil_r d) at 1. now apply slice_to_app.
Qed.

Lemma status_roundtrip s : status_from_bytes (status_write_to s) = Ok (norm_status s).
Proof. destruct s; reflexivity. Qed.

Lemma millis_u32_lt ns : millis_u32 ns < 4294967296.
Proof. unfold millis_u32, u32_trunc. apply N.mod_lt. discriminate. Qed.

Lemma r2c_decode_encode ip v m :
  typed_r2c ip m = true ->
  r2c_from_bytes ip v (ft_code (r2c_typ m) :: r2c_payload m) =
  if r2c_payload_len m <=? MAXP then
    if version_ok v m then Ok (norm_r2c m) else Err E_VERSION
  else Err E_TOO_LARGE.
Proof.
  intros Ht. unfold r2c_from_bytes. rewrite ft_from_bytes_code. cbn [bind].
  rewrite (r2c_payload_len_ok ip m Ht). destruct (r2c_payload_len m <=? MAXP); [|reflexivity].
  destruct m as [k d|k|s|a b|d|d|p]; cbn [negb version_ok norm_r2c typed_r2c r2c_payload] in *.
  - apply andb_prop in Ht as [Hk Hd].
    destruct d as [e [s|] c]; cbn [r2c_typ C16.seg]; now rewrite (datagrams_frame_roundtrip ip k _ _ Hk Hd).
  - apply typed_key_parts in Ht as (Hl & _ & Hp). cbn [r2c_typ r2c_payload_len]. unfold KEY_LEN.
    now rewrite N.eqb_refl, key_from_slice_ok.
  - cbn [r2c_typ]. destruct (PV_V2 <=? v); [|reflexivity]. now rewrite status_roundtrip.
  - cbn [r2c_typ r2c_payload_len].
    rewrite N.eqb_refl, slice_to_app, slice_from_app by apply Varint.be_bytes_len. cbn [negb bind].
    rewrite !Varint.be_bytes_len, !Varint.be_val_be_bytes by apply millis_u32_lt. reflexivity.
  - cbn [r2c_typ]. now rewrite ping_data_roundtrip.
  - cbn [r2c_typ]. now rewrite ping_data_roundtrip.
  - apply andb_prop in Ht as [_ Hu]. cbn [r2c_typ]. destruct (v =? PV_V1); [|reflexivity]. now rewrite Hu.
Qed.

Lemma c2r_decode_encode ip m :
  typed_c2r ip m = true ->
  c2r_from_bytes ip (ft_code (c2r_typ m) :: c2r_payload m) =
  if c2r_payload_len m <=? MAXP then Ok m else Err E_TOO_LARGE.
Proof.
  intros Ht. unfold c2r_from_bytes. rewrite ft_from_bytes_code. cbn [bind].
  rewrite (c2r_payload_len_ok ip m Ht). destruct (c2r_payload_len m <=? MAXP); [|reflexivity].
  destruct m as [d|d|k d]; cbn [negb typed_c2r c2r_payload] in *.
  - cbn [c2r_typ]. now rewrite ping_data_roundtrip.
  - cbn [c2r_typ]. now rewrite ping_data_roundtrip.
  - apply andb_prop in Ht as [Hk Hd].
    destruct d as [e [s|] c]; cbn [c2r_typ C16.seg]; now rewrite (datagrams_frame_roundtrip ip k _ _ Hk Hd).
Qed.

Lemma whole_ms_norm a : whole_ms a = true -> millis_u32 a * NS_PER_MS = a.
Proof.
  unfold whole_ms, millis_u32, u32_trunc, U32_MAX, NS_PER_MS. intros H.
  apply andb_prop in H as [Hm Hd].
  rewrite N.mod_small by lia.
  pose proof (N.div_mod a 1000000 ltac:(lia)). lia.
Qed.

Lemma wf_norm ip v m : wf_r2c ip v m = true -> norm_r2c m = m.
Proof.
  unfold wf_r2c. intros H. apply andb_prop in H as [_ H].
  destruct m as [k d|k|s|a b|d|d|p]; try reflexivity.
  - destruct s as [| | |n]; try reflexivity. cbn [norm_r2c norm_status].
    destruct n as [|[[?|?|]|[?|?|]|]]; try reflexivity; lia.
  - apply andb_prop in H as [Ha Hb]. cbn [norm_r2c]. now rewrite !whole_ms_norm.
Qed.

Lemma wf_r2c_parts ip v m : wf_r2c ip v m = true ->
  typed_r2c ip m = true /\ version_ok v m = true /\ (r2c_payload_len m <=? MAXP) = true.
Proof. unfold wf_r2c. rewrite !andb_true_iff. tauto. Qed.

Lemma r2c_roundtrip ip v m :
  wf_r2c ip v m = true ->
  exists b, r2c_to_bytes m = Ok b /\ r2c_from_bytes ip v b = Ok m.
Proof.
  intros Hwf. destruct (wf_r2c_parts ip v m Hwf) as (Ht & Hv & Hsz).
  eexists. split; [apply r2c_to_bytes_ok|].
  now rewrite (r2c_decode_encode ip v m Ht), Hsz, Hv, (wf_norm ip v m Hwf).
Qed.

Lemma c2r_roundtrip ip m :
  wf_c2r ip m = true ->
  exists b, c2r_to_bytes m = Ok b /\ c2r_from_bytes ip b = Ok m.
Proof.
  unfold wf_c2r. intros Hwf. apply andb_prop in Hwf as [Ht Hsz].
  eexists. split; [apply c2r_to_bytes_ok|].
  now rewrite (c2r_decode_encode ip m Ht), Hsz.
Qed.

Lemma version_gate_encoded ip v m :
  typed_r2c ip m = true -> r2c_payload_len m <= MAXP -> version_ok v m = false ->
  exists b, r2c_to_bytes m = Ok b /\ r2c_from_bytes ip v b = Err E_VERSION.
Proof.
  intros Ht Hsz Hv. eexists. split; [apply r2c_to_bytes_ok|].
  rewrite (r2c_decode_encode ip v m Ht), Hv.
  destruct (N.leb_spec (r2c_payload_len m) MAXP); [reflexivity|lia].
Qed.

Lemma dg_from_bytes_no_panic b flag : dg_from_bytes b flag <> Panic.
Proof.
  unfold dg_from_bytes. destruct flag.
  - destruct (N.leb_spec 3 (len b)) as [H|H]; [|discriminate].
    destruct b as [|x [|y [|z r]]]; try (unfold len in H; cbn in H; lia). discriminate.
  - destruct (N.leb_spec 1 (len b)) as [H|H]; [|discriminate].
    destruct b as [|x r]; [unfold len in H; cbn in H; lia|]. discriminate.
Qed.

Lemma key_from_slice_no_panic ip s : key_from_slice ip s <> Panic.
Proof. unfold key_from_slice. destruct (_ && _); discriminate. Qed.

Lemma datagrams_frame_no_panic ip content flag : datagrams_frame ip content flag <> Panic.
Proof.
  unfold datagrams_frame. destruct (N.leb_spec KEY_LEN (len content)) as [H|H]; [|discriminate].
  rewrite slice_to_ok, slice_from_ok by exact H. cbn [negb bind].
  eapply (sat_total (fun _ => True)), sat_bind; [apply total_sat, key_from_slice_no_panic|]. intros key _.
  eapply sat_bind; [apply total_sat, dg_from_bytes_no_panic|]. intros d _. exact I.
Qed.

Lemma ping_data_no_panic content : ping_data content <> Panic.
Proof.
  unfold ping_data. destruct (N.eqb_spec (len content) 8) as [H|H]; [|discriminate].
  rewrite slice_to_ok by lia. discriminate.
Qed.

Lemma status_from_bytes_no_panic b : status_from_bytes b <> Panic.
Proof. unfold status_from_bytes. destruct b; discriminate. Qed.

Lemma rmap_no_panic {A B} (f : A -> B) (x : res A) : x <> Panic -> rmap f x <> Panic.
Proof. now destruct x. Qed.

Lemma r2c_from_bytes_sat ip v b :
  sat (bytes_ok b <> true)
    (fun m => match m with RHealth _ => v = PV_V1 | RStatus _ => PV_V2 <= v | _ => True end)
    (r2c_from_bytes ip v b).
Proof.
  unfold r2c_from_bytes. eapply sat_bind with (P := fun _ => True).
  { apply sat_intro; [|auto]. intros E Hb. exact (ft_from_bytes_no_panic b Hb E). }
  intros [ft content] _. destruct (negb (len content <=? MAXP)); [exact I|].
  destruct ft; try exact I.
  - eapply sat_bind; [apply total_sat, datagrams_frame_no_panic|]. now intros [].
  - eapply sat_bind; [apply total_sat, datagrams_frame_no_panic|]. now intros [].
  - destruct (negb (len content =? KEY_LEN)); [exact I|].
    eapply sat_bind; [apply total_sat, key_from_slice_no_panic|]. intros key _. exact I.
  - eapply sat_bind; [apply total_sat, ping_data_no_panic|]. intros d _. exact I.
  - eapply sat_bind; [apply total_sat, ping_data_no_panic|]. intros d _. exact I.
  - destruct (N.eqb_spec v PV_V1) as [Hv|]; [|exact I]. destruct (utf8_valid content); [exact Hv|exact I].
  - destruct (N.eqb_spec (len content) (4 + 4)) as [H|H]; [|exact I].
    rewrite slice_to_ok, slice_from_ok by lia. cbn [negb bind].
    destruct (negb (len (firstn (N.to_nat 4) content) =? 4)); [exact I|]. cbn [bind].
    destruct (negb (len (skipn (N.to_nat 4) content) =? 4)); exact I.
  - destruct (N.leb_spec PV_V2 v) as [Hv|]; [|exact I].
    eapply sat_bind; [apply total_sat, status_from_bytes_no_panic|]. intros s _. exact Hv.
Qed.

Lemma version_gate_decoded ip v b m :
  r2c_from_bytes ip v b = Ok m ->
  match m with RHealth _ => v = PV_V1 | RStatus _ => PV_V2 <= v | _ => True end.
Proof. exact (sat_ok _ _ _ _ (r2c_from_bytes_sat ip v b)). Qed.

Lemma r2c_from_bytes_total ip v b : bytes_ok b = true -> r2c_from_bytes ip v b <> Panic.
Proof. intros Hb. exact (sat_no_panic _ _ _ (r2c_from_bytes_sat ip v b) (fun H => H Hb)). Qed.

(* the server's decoder has no version gate: of what it returns there is nothing to say *)
Lemma c2r_from_bytes_total ip b : bytes_ok b = true -> c2r_from_bytes ip b <> Panic.
Proof.
  intros Hb. unfold c2r_from_bytes.
  eapply (sat_total (fun _ => True)), sat_bind; [apply total_sat; now apply ft_from_bytes_no_panic|].
  intros [ft content] _. destruct (negb (len content <=? MAXP)); [exact I|].
  destruct ft; try exact I.
  - eapply sat_bind; [apply total_sat, datagrams_frame_no_panic|]. now intros [].
  - eapply sat_bind; [apply total_sat, datagrams_frame_no_panic|]. now intros [].
  - eapply sat_bind; [apply total_sat, ping_data_no_panic|]. intros d _. exact I.
  - eapply sat_bind; [apply total_sat, ping_data_no_panic|]. intros d _. exact I.
Qed.

(* both sinks: the size check on the predicted length, the empty-packet check, then the encoding;
   so a sink never panics, and hands on nothing but the encoding, of a size within the bound *)
Lemma sink_sat (pl : N) (empty : bool) (enc : bytes) :
  sat False (fun b => b = enc /\ 1 + pl <= MAXP)
    (if negb (1 + pl <=? MAXP) then Err S_TOO_LARGE else if empty then Err S_EMPTY else Ok enc).
Proof.
  destruct (N.leb_spec (1 + pl) MAXP) as [H|H]; cbn [negb]; [|exact I].
  destruct empty; [exact I|]. split; [reflexivity|exact H].
Qed.

Lemma r2c_sink_sat m :
  sat False (fun b => b = ft_code (r2c_typ m) :: r2c_payload m /\ 1 + r2c_payload_len m <= MAXP) (r2c_sink m).
Proof. unfold r2c_sink. rewrite r2c_encoded_len_ok, r2c_to_bytes_ok. apply sink_sat. Qed.

Lemma c2r_sink_sat m :
  sat False (fun b => b = ft_code (c2r_typ m) :: c2r_payload m /\ 1 + c2r_payload_len m <= MAXP) (c2r_sink m).
Proof. unfold c2r_sink. rewrite c2r_encoded_len_ok, c2r_to_bytes_ok. apply sink_sat. Qed.

Lemma client_sink_server_decoder ip m b :
  typed_c2r ip m = true -> c2r_sink m = Ok b -> c2r_from_bytes ip b = Ok m.
Proof.
  intros Ht Hs. destruct (sat_ok _ _ _ _ (c2r_sink_sat m) Hs) as [-> Hsz].
  rewrite (c2r_decode_encode ip m Ht).
  destruct (N.leb_spec (c2r_payload_len m) MAXP); [reflexivity|lia].
Qed.

Lemma server_sink_client_decoder ip v m b :
  typed_r2c ip m = true -> version_ok v m = true -> r2c_sink m = Ok b ->
  r2c_from_bytes ip v b = Ok (norm_r2c m).
Proof.
  intros Ht Hv Hs. destruct (sat_ok _ _ _ _ (r2c_sink_sat m) Hs) as [-> Hsz].
  rewrite (r2c_decode_encode ip v m Ht), Hv.
  destruct (N.leb_spec (r2c_payload_len m) MAXP); [reflexivity|lia].
Qed.

(* The decoders accept one byte more than the sinks send (frame_len excludes the type byte,
   encoded_len includes it): C10 does not demand the converse, C05 is about its consequences.
   33: the 32 bytes of the key and the ECN byte of a datagram without a segment size. *)
Lemma payload_of_MAXP ip k c :
  typed_key ip k = true -> bytes_ok c = true -> 33 + len c = MAXP ->
  let m := CDatagrams k (C16.mkDg 0 None c) in
  typed_c2r ip m = true /\ c2r_sink m = Err S_TOO_LARGE /\
  exists b, c2r_to_bytes m = Ok b /\ c2r_from_bytes ip b = Ok m.
Proof.
  intros Hk Hc Hl m.
  assert (Ht : typed_c2r ip m = true).
  { cbn [m typed_c2r]. rewrite Hk. unfold typed_dg. cbn [C16.ecn C16.seg C16.contents]. now rewrite Hc. }
  assert (Hp : c2r_payload_len m = MAXP).
  { cbn [m c2r_payload_len]. unfold dg_encoded_len. cbn [C16.seg C16.contents]. lia. }
  split; [exact Ht|]. split.
  - unfold c2r_sink. rewrite c2r_encoded_len_ok, Hp. cbn [bind].
    destruct (N.leb_spec (1 + MAXP) MAXP); [lia|reflexivity].
  - eexists. split; [apply c2r_to_bytes_ok|].
    now rewrite (c2r_decode_encode ip m Ht), Hp, N.leb_refl.
Qed.

Lemma decoder_accepts_more_than_sink :
  exists ip m, typed_c2r ip m = true /\ c2r_sink m = Err S_TOO_LARGE /\
    exists b, c2r_to_bytes m = Ok b /\ c2r_from_bytes ip b = Ok m.
Proof.
  exists (fun _ => true), (CDatagrams (repeat 0 32) (C16.mkDg 0 None (repeat 0 (N.to_nat (MAXP - 33))))).
  apply payload_of_MAXP; [reflexivity|now apply forallb_repeat|].
  unfold len. rewrite repeat_length, N2Nat.id. reflexivity.
Qed.

Lemma digest_len_digest b : digest_len (digest b) = len b.
Proof.
  unfold digest, digest_len. destruct (len b <=? 64) eqn:H.
  - rewrite H. reflexivity.
  - set (p := firstn 64 b).
    assert (Hf : length p = 64%nat) by (apply firstn_length_le; unfold len in H; lia).
    rewrite len_app. unfold len at 1 2. rewrite Hf.
    change (N.of_nat 64 + _ <=? 64) with false.
    rewrite <- Hf. apply nth_middle.
Qed.

Lemma dg_eqb_iff a b : C16.dg_eqb a b = true <-> a = b.
Proof.
  destruct a as [e s c], b as [e' s' c']. unfold C16.dg_eqb. cbn [C16.ecn C16.seg C16.contents].
  eapply iff_trans.
  { apply andb_iff; [apply andb_iff; [apply N.eqb_eq|apply opt_N_eqb_iff]|apply bytes_eqb_iff]. }
  split; [intros [[-> ->] ->]; reflexivity|intros [= -> -> ->]; auto].
Qed.

Lemma status_eqb_iff a b : status_eqb a b = true <-> a = b.
Proof.
  split.
  - destruct a, b; try discriminate; try reflexivity. intros H. apply N.eqb_eq in H as ->. reflexivity.
  - intros <-. destruct a; try reflexivity. apply N.eqb_refl.
Qed.

Lemma r2c_eqb_iff a b : r2c_eqb a b = true <-> a = b.
Proof.
  split.
  - destruct a, b; try discriminate; cbn [r2c_eqb]; intros H; try (apply bytes_eqb_eq in H as ->; reflexivity).
    + apply andb_prop in H as [Hk Hd]. apply bytes_eqb_eq in Hk as ->. apply dg_eqb_iff in Hd as ->. reflexivity.
    + apply status_eqb_iff in H as ->. reflexivity.
    + apply andb_prop in H as [Hx Hy]. apply N.eqb_eq in Hx as ->. apply N.eqb_eq in Hy as ->. reflexivity.
  - intros <-. destruct a; cbn [r2c_eqb]; rewrite ?bytes_eqb_refl, ?N.eqb_refl; try reflexivity.
    + apply dg_eqb_iff. reflexivity.
    + apply status_eqb_iff. reflexivity.
Qed.

Lemma c2r_eqb_iff a b : c2r_eqb a b = true <-> a = b.
Proof.
  split.
  - destruct a, b; try discriminate; cbn [c2r_eqb]; intros H; try (apply bytes_eqb_eq in H as ->; reflexivity).
    apply andb_prop in H as [Hk Hd]. apply bytes_eqb_eq in Hk as ->. apply dg_eqb_iff in Hd as ->. reflexivity.
  - intros <-. destruct a; cbn [c2r_eqb]; rewrite bytes_eqb_refl; try reflexivity.
    apply dg_eqb_iff. reflexivity.
Qed.

Lemma is_ok_iff {A} (x : res A) : is_ok x = true <-> exists a, x = Ok a.
Proof.
  destruct x; cbn [is_ok]; split; intros H; try discriminate H; [eauto|reflexivity|now destruct H..].
Qed.

(* The five clauses of [enc_monitor], as propositions.  [elen]: what encoded_len returned;
   [enc]: the digest of what to_bytes wrote; [sink]: the digest of what start_send handed to
   the websocket, or its SendError; [dec]: what the peer's decoder made of the bytes.
   Props/C10.v writes the clauses out, and its theorem meets [monitor_enc_r_spec] by conversion. *)
Definition enc_spec {M} (wf sendable : bool) (expect : M)
    (elen : res N) (enc sink : res bytes) (dec : res M) : Prop :=
  (elen <> Panic /\ enc <> Panic /\ sink <> Panic /\ dec <> Panic) /\
  (exists l e, elen = Ok l /\ enc = Ok e /\ l = digest_len e) /\
  (forall s, sink = Ok s -> enc = Ok s) /\
  (wf = true -> dec = Ok expect) /\
  (sendable = true -> forall s, sink = Ok s -> exists m', dec = Ok m').

Lemma enc_monitor_spec {M} (meqb : M -> M -> bool) :
  (forall a b, meqb a b = true <-> a = b) ->
  forall wf sendable expect elen enc sink dec,
  enc_monitor wf sendable expect meqb elen enc sink dec = true <->
  enc_spec wf sendable expect elen enc sink dec.
Proof.
  intros He wf sendable expect elen enc sink dec. unfold enc_monitor, enc_spec.
  do 3 apply andb_assoc_iff. apply andb_iff.
  - repeat apply andb_assoc_iff. repeat apply andb_iff; apply not_panic_iff.
  - repeat apply andb_iff.
    + split.
      * destruct elen as [l| |], enc as [b| |]; try discriminate. intros H. apply N.eqb_eq in H. eauto.
      * intros (l & e & -> & -> & ->). apply N.eqb_refl.
    + destruct sink as [s| |]; [|split; [intros _ s0; discriminate|reflexivity]..].
      split.
      * intros H s0 [= <-]. symmetry. apply (res_eqb_iff bytes_eqb bytes_eqb_iff), H.
      * intros H. apply (res_eqb_iff bytes_eqb bytes_eqb_iff). symmetry. apply H. reflexivity.
    + apply impb_iff; [apply iff_refl|apply res_eqb_iff, He].
    + split.
      * intros H -> s ->. apply is_ok_iff, H.
      * intros H. destruct sink as [s| |], sendable; try reflexivity. apply is_ok_iff, (H eq_refl s eq_refl).
Qed.

(* terms that are not values of the Rust message types are outside the quantifier *)
Lemma monitor_enc_r_iff v m elen enc sink dec :
  monitor (IEncR v m) (OEncR elen enc sink dec) = true <->
  (typed_r2c (is_point_of (r2c_keys m)) m = true ->
   enc_spec (wf_r2c (is_point_of (r2c_keys m)) v m) (version_ok v m) (obs_r2c m) elen enc sink dec /\
   (version_ok v m = false -> r2c_payload_len m <= MAXP -> dec = Err E_VERSION)).
Proof.
  cbn [monitor]. rewrite if_negb. apply impb_iff; [apply iff_refl|]. apply andb_iff.
  - apply enc_monitor_spec, r2c_eqb_iff.
  - apply impb_and. apply impb_iff; [apply negb_true_iff|]. apply impb_iff; [apply N.leb_le|].
    apply res_eqb_iff, r2c_eqb_iff.
Qed.

Lemma monitor_enc_c_iff m elen enc sink dec :
  monitor (IEncC m) (OEncC elen enc sink dec) = true <->
  (typed_c2r (is_point_of (c2r_keys m)) m = true ->
   enc_spec (wf_c2r (is_point_of (c2r_keys m)) m) true (obs_c2r m) elen enc sink dec).
Proof.
  cbn [monitor]. rewrite if_negb. apply impb_iff; [apply iff_refl|]. apply enc_monitor_spec, c2r_eqb_iff.
Qed.

Lemma monitor_enc_r_spec v m elen enc sink dec :
  typed_r2c (is_point_of (r2c_keys m)) m = true ->
  (monitor (IEncR v m) (OEncR elen enc sink dec) = true <->
   enc_spec (wf_r2c (is_point_of (r2c_keys m)) v m) (version_ok v m) (obs_r2c m) elen enc sink dec /\
   (version_ok v m = false -> r2c_payload_len m <= MAXP -> dec = Err E_VERSION)).
Proof. intros Ht. rewrite monitor_enc_r_iff. split; auto. Qed.

(* [enc_spec] at sendable := true, written out because the premise `true = true` of its last clause
   is dropped *)
Lemma monitor_enc_c_spec m elen enc sink dec :
  typed_c2r (is_point_of (c2r_keys m)) m = true ->
  (monitor (IEncC m) (OEncC elen enc sink dec) = true <->
   (elen <> Panic /\ enc <> Panic /\ sink <> Panic /\ dec <> Panic) /\
   (exists l e, elen = Ok l /\ enc = Ok e /\ l = digest_len e) /\
   (forall s, sink = Ok s -> enc = Ok s) /\
   (wf_c2r (is_point_of (c2r_keys m)) m = true -> dec = Ok (obs_c2r m)) /\
   (forall s, sink = Ok s -> exists m', dec = Ok m')).
Proof.
  intros Ht. rewrite monitor_enc_c_iff. unfold enc_spec.
  split; [intros H; apply H in Ht as (H1 & H2 & H3 & H4 & H5)|intros (H1 & H2 & H3 & H4 & H5) _]; eauto 7.
Qed.

Lemma monitor_enc_untyped_r v m elen enc sink dec :
  typed_r2c (is_point_of (r2c_keys m)) m = false -> monitor (IEncR v m) (OEncR elen enc sink dec) = true.
Proof. intros Ht. apply monitor_enc_r_iff. rewrite Ht. discriminate. Qed.
Lemma monitor_enc_untyped_c m elen enc sink dec :
  typed_c2r (is_point_of (c2r_keys m)) m = false -> monitor (IEncC m) (OEncC elen enc sink dec) = true.
Proof. intros Ht. apply monitor_enc_c_iff. rewrite Ht. discriminate. Qed.

Lemma monitor_dec_r_spec v valid b r :
  monitor (IDecR v valid b) (ODecR r) = true <->
  (bytes_ok b = true -> r <> Panic) /\
  (forall p, r = Ok (RHealth p) -> v = PV_V1) /\
  (forall s, r = Ok (RStatus s) -> PV_V2 <= v).
Proof.
  cbn [monitor]. apply andb_iff; [apply impb_iff; [apply iff_refl|apply not_panic_iff]|]. split.
  - intros H. split; [intros p ->|intros s ->]; lia.
  - intros (H2 & H3). destruct r as [[]| |]; try reflexivity.
    + specialize (H3 _ eq_refl). lia.
    + rewrite (H2 _ eq_refl). apply N.eqb_refl.
Qed.

Lemma monitor_dec_c_spec valid b r :
  monitor (IDecC valid b) (ODecC r) = true <-> (bytes_ok b = true -> r <> Panic).
Proof. apply impb_iff; [apply iff_refl|apply not_panic_iff]. Qed.

(* The model's encoder case: [pl] is the payload length, [c :: p] the encoding, [nm] what the
   decoder makes of it when it accepts it. *)
Lemma enc_spec_model {M} (wf sendable : bool) (m nm : M) (obs : M -> M)
    (pl c : N) (p : bytes) (sink : res bytes) :
  len p = pl ->
  sat False (fun b => b = c :: p /\ 1 + pl <= MAXP) sink ->
  (wf = true -> sendable = true /\ (pl <=? MAXP) = true /\ nm = m) ->
  enc_spec wf sendable (obs m) (Ok (1 + pl)) (Ok (digest (c :: p))) (rmap digest sink)
    (rmap obs (if pl <=? MAXP then (if sendable then Ok nm else Err E_VERSION) else Err E_TOO_LARGE)).
Proof.
  intros Hlen Hsink Hwf. unfold enc_spec. split; [|split; [|split; [|split]]].
  - repeat split; try discriminate; [apply rmap_no_panic, (sat_total _ _ Hsink)|].
    destruct (pl <=? MAXP); [destruct sendable|]; discriminate.
  - exists (1 + pl), (digest (c :: p)). rewrite digest_len_digest, len_cons, Hlen. repeat split. lia.
  - intros s. destruct sink as [b| |]; [|discriminate..]. destruct Hsink as [-> _]. now intros [= <-].
  - intros H. destruct (Hwf H) as (-> & -> & ->). reflexivity.
  - intros -> s. destruct sink as [b| |]; [|discriminate..]. destruct Hsink as [_ Hsz]. intros _.
    destruct (N.leb_spec pl MAXP); [cbn; eauto|lia].
Qed.

Lemma model_monitor i : monitor i (model i) = true.
Proof.
  destruct i as [v m|m|v valid b|valid b|]; cbn [model].
  - apply monitor_enc_r_iff. set (ip := is_point_of (r2c_keys m)). intros Ht.
    rewrite r2c_to_bytes_ok, r2c_encoded_len_ok. cbn [rmap bind].
    rewrite (r2c_decode_encode ip v m Ht). split.
    + apply (enc_spec_model _ _ m (norm_r2c m)).
      * exact (r2c_payload_len_ok ip m Ht).
      * apply r2c_sink_sat.
      * intros Hwf. destruct (wf_r2c_parts ip v m Hwf) as (_ & Hv & Hsz).
        repeat split; [exact Hv|exact Hsz|exact (wf_norm ip v m Hwf)].
    + intros Hv Hsz. apply N.leb_le in Hsz. now rewrite Hv, Hsz.
  - apply monitor_enc_c_iff. set (ip := is_point_of (c2r_keys m)). intros Ht.
    rewrite c2r_to_bytes_ok, c2r_encoded_len_ok. cbn [rmap bind].
    rewrite (c2r_decode_encode ip m Ht). apply (enc_spec_model _ true m m).
    + exact (c2r_payload_len_ok ip m Ht).
    + apply c2r_sink_sat.
    + unfold wf_c2r. intros Hwf. apply andb_prop in Hwf as [_ Hsz]. repeat split. exact Hsz.
  - apply monitor_dec_r_spec. split; [intros Hb; apply rmap_no_panic, r2c_from_bytes_total, Hb|].
    destruct (r2c_from_bytes (is_point_of valid) v b) as [m| |] eqn:E; cbn [rmap]; [|split; discriminate..].
    pose proof (version_gate_decoded _ _ _ _ E) as Hg.
    destruct m; split; try discriminate; intros x _; exact Hg.
  - apply monitor_dec_c_spec. intros Hb. apply rmap_no_panic, c2r_from_bytes_total, Hb.
  - apply list_eqb_refl, N.eqb_refl.
Qed.

Definition kA : bytes := hex "197f6b23e16c8532c6abc838facd5ea789be0c76b2920334039bfa8b3d368d61".
Definition ipA : bytes -> bool := is_point_of [kA].

(* the snapshot frames of relay.rs tests *)
Example snapshot_batch :
  r2c_to_bytes (RDatagrams kA (C16.mkDg 3 (Some 6) (str_bytes "Hello World!"))) =
  Ok (hex "07197f6b23e16c8532c6abc838facd5ea789be0c76b2920334039bfa8b3d368d6103000648656c6c6f20576f726c6421").
Proof. vm_compute. reflexivity. Qed.

Example snapshot_restarting :
  r2c_to_bytes (RRestarting 10000000 20000000) = Ok (hex "0c0000000a00000014").
Proof. vm_compute. reflexivity. Qed.

Example wf_examples :
  wf_r2c ipA 2 (RDatagrams kA (C16.mkDg 3 (Some 6) (str_bytes "Hello World!"))) = true /\
  wf_r2c ipA 1 (RHealth (hex "e282ac")) = true /\
  wf_r2c ipA 2 (RStatus (Unknown 3)) = true /\
  wf_r2c ipA 2 (RRestarting 4294967295000000 0) = true /\
  wf_r2c ipA 2 (RRestarting 4294967296000000 0) = false /\
  wf_r2c ipA 2 (RStatus (Unknown 2)) = false /\
  wf_c2r ipA (CDatagrams kA (C16.mkDg 0 None [])) = true.
Proof. vm_compute. repeat split. Qed.

(* non-minimal frame type varints are accepted (decoding is not injective) *)
Example nonminimal_type_accepted :
  r2c_from_bytes ipA 2 (hex "40090102030405060708") = Ok (RPing (hex "0102030405060708")) /\
  r2c_from_bytes ipA 2 (hex "090102030405060708") = Ok (RPing (hex "0102030405060708")).
Proof. vm_compute. split; reflexivity. Qed.

Example version_gate_examples :
  r2c_from_bytes ipA 2 (hex "0b6f6b") = Err E_VERSION /\
  r2c_from_bytes ipA 1 (hex "0b6f6b") = Ok (RHealth (hex "6f6b")) /\
  r2c_from_bytes ipA 1 (hex "0d01") = Err E_VERSION /\
  r2c_from_bytes ipA 2 (hex "0d01") = Ok (RStatus SameEndpointIdConnected).
Proof. vm_compute. repeat split. Qed.
