(* C24 — path selection.  The selector's loop computes the two minima the monitor computes
   (run_keys), so the monitor accepts what the selector returns (model_monitor); key_min_spec reads
   the minima, and the monitor is the Prop-level specification select_spec (monitor_spec).  The two
   give `model_select`, from which the tier and hysteresis theorems follow. *)
From V Require Import Lib.Base Lib.Lists Gen.Consts Model.C24.
From V Require Import Lib.LiaBool.
Import C24.
Open Scope Z_scope.

Lemma tier_rank_inj a b : tier_rank a = tier_rank b -> a = b.
Proof. destruct a, b; cbn; intros; congruence || lia. Qed.

Lemma tier_eqb_iff a b : tier_eqb a b = true <-> a = b.
Proof. eapply iff_trans; [apply Z.eqb_eq|]. split; [apply tier_rank_inj|now intros ->]. Qed.

Lemma key_ltb_irrefl k : key_ltb k k = false.
Proof. unfold key_ltb. lia. Qed.

Lemma key_ltb_trans a b c : key_ltb a b = true -> key_ltb b c = true -> key_ltb a c = true.
Proof. unfold key_ltb. lia. Qed.

Lemma key_ltb_asym a b : key_ltb a b = true -> key_ltb b a = false.
Proof. unfold key_ltb. lia. Qed.

Lemma key_geb_trans a b c : key_ltb a b = false -> key_ltb b c = false -> key_ltb a c = false.
Proof. unfold key_ltb. lia. Qed.

Lemma key_eqb_iff a b : key_eqb a b = true <-> a = b.
Proof.
  eapply iff_trans; [apply andb_iff; [apply tier_eqb_iff|apply Z.eqb_eq]|].
  destruct a, b. cbn [fst snd]. split; [intros [-> ->]; reflexivity|now intros [= -> ->]].
Qed.

Lemma key_total a b : key_ltb a b = false -> key_ltb b a = false -> a = b.
Proof. intros H1 H2. apply key_eqb_iff. revert H1 H2. unfold key_ltb, key_eqb, tier_eqb. lia. Qed.

Lemma addr_eqb_iff a b : addr_eqb a b = true <-> a = b.
Proof.
  eapply iff_trans; [apply andb_iff; apply N.eqb_eq|].
  destruct a, b. cbn [kind aid]. split; [intros [-> ->]; reflexivity|now intros [= -> ->]].
Qed.

(* What the statements are written in.  Only a candidate with readable stats counts, f selects by
   address, and an address may stand in l several times: [is_min (fun x => addr_eqb x a) l k] makes k
   the least key over the instances of a.  [all] is the test the monitor writes [fun _ => true]; a
   goal that unfolds the monitor shows it only after [change]. *)
Definition attained (f : addr -> bool) (l : list path) (k : key) : Prop :=
  exists a r, In (a, Some r) l /\ f a = true /\ sort_key a r = k.
Definition lower_bound (f : addr -> bool) (l : list path) (k : key) : Prop :=
  forall a r, In (a, Some r) l -> f a = true -> key_ltb (sort_key a r) k = false.
Definition is_min (f : addr -> bool) (l : list path) (k : key) : Prop :=
  attained f l k /\ lower_bound f l k.
Definition none_of (f : addr -> bool) (l : list path) : Prop :=
  forall a r, In (a, Some r) l -> f a = false.
Definition all : addr -> bool := fun _ => true.

Definition min_opt (f : addr -> bool) (l : list path) (o : option key) : Prop :=
  match o with None => none_of f l | Some k => is_min f l k end.

Lemma is_min_unique f l k k' : is_min f l k -> is_min f l k' -> k = k'.
Proof.
  intros [(a & r & Ha & Hf & Hk) Hl] [(a' & r' & Ha' & Hf' & Hk') Hl'].
  apply key_total.
  - rewrite <- Hk. now apply Hl'.
  - rewrite <- Hk'. now apply Hl.
Qed.

Lemma is_min_not_none f l k : is_min f l k -> none_of f l -> False.
Proof. intros [(a & r & Ha & Hf & _) _] Hn. specialize (Hn a r Ha). congruence. Qed.

Lemma in_keys_of f l k : In k (keys_of f l) <-> attained f l k.
Proof.
  split.
  - induction l as [|p l IH]; [intros []|].
    assert (Tl : In k (keys_of f l) -> attained f (p :: l) k).
    { intros H. destruct (IH H) as (a & r & Hin & H'). exists a, r. split; [now right|exact H']. }
    destruct p as [b [r|]]; cbn [keys_of]; [|exact Tl].
    destruct (f b) eqn:Hf; [|exact Tl]. intros [<-|H]; [|exact (Tl H)].
    exists b, r. split; [now left|auto].
  - intros (a & r & Hin & Hf & <-). induction l as [|[b [r'|]] l IH]; cbn [keys_of]; [destruct Hin|..];
      destruct Hin as [[= <- <-]|Hin]; [rewrite Hf; now left|destruct (f b); [right|]; auto|auto].
Qed.

Lemma fold_min2_least ks : forall k0,
  In (fold_left key_min2 ks k0) (k0 :: ks) /\
  forall k, In k (k0 :: ks) -> key_ltb k (fold_left key_min2 ks k0) = false.
Proof.
  induction ks as [|k1 ks IH]; intros k0; cbn [fold_left].
  - split; [now left|]. intros k [<-|[]]. apply key_ltb_irrefl.
  - destruct (IH (key_min2 k0 k1)) as [Hin Hlow].
    assert (H01 : key_ltb k0 (key_min2 k0 k1) = false /\ key_ltb k1 (key_min2 k0 k1) = false).
    { unfold key_min2. destruct (key_ltb k1 k0) eqn:E; auto using key_ltb_irrefl, key_ltb_asym. }
    split.
    + destruct Hin as [<-|Hin]; [unfold key_min2; destruct (key_ltb k1 k0); cbn; auto|now right; right].
    + intros k [<-|[<-|Hk]]; [| |apply Hlow; now right];
        (eapply key_geb_trans; [apply H01|apply Hlow; now left]).
Qed.

Lemma key_min_spec f l : min_opt f l (key_min (keys_of f l)).
Proof.
  pose proof (in_keys_of f l) as M. destruct (keys_of f l) as [|k0 ks]; cbn [key_min min_opt].
  - intros a r Hin. destruct (f a) eqn:Hf; [|reflexivity]. destruct (proj2 (M (sort_key a r))). exists a, r. auto.
  - destruct (fold_min2_least ks k0) as [Hin Hlow]. split; [now apply M|].
    intros a r Ha Hf. apply Hlow, M. exists a, r. auto.
Qed.

Lemma key_min_some f l k : is_min f l k -> key_min (keys_of f l) = Some k.
Proof.
  intros H. pose proof (key_min_spec f l) as S. destruct (key_min (keys_of f l)) as [k'|].
  - f_equal. exact (is_min_unique _ _ _ _ S H).
  - destruct (is_min_not_none _ _ _ H S).
Qed.

Lemma key_min_none f l : none_of f l -> key_min (keys_of f l) = None.
Proof.
  intros H. pose proof (key_min_spec f l) as S. destruct (key_min (keys_of f l)); [|reflexivity].
  destruct (is_min_not_none _ _ _ S H).
Qed.

(* [kmin_from o ks] is key_min of ks continued from a minimum so far (None: nothing seen yet) and
   [upd_min o k] its one step, which is how [step] lowers either of its two minima (step_min).
   Stated from any state, fold_step goes through by induction. *)
Definition upd_min (o : option key) (k : key) : key :=
  match o with None => k | Some c => key_min2 c k end.

Lemma step_min o k : (if is_none_or o (fun c => key_ltb k c) then Some k else o) = Some (upd_min o k).
Proof. destruct o as [c|]; [|reflexivity]. cbn. unfold key_min2. now destruct (key_ltb k c). Qed.

Definition kmin_from (o : option key) (ks : list key) : option key :=
  match o with None => key_min ks | Some c => Some (fold_left key_min2 ks c) end.

Lemma kmin_from_nil o : kmin_from o [] = o.
Proof. now destruct o. Qed.

Lemma kmin_from_cons o k ks : kmin_from o (k :: ks) = kmin_from (Some (upd_min o k)) ks.
Proof. now destruct o. Qed.

Definition is_cur (cur : option addr) : addr -> bool := fun a => opt_eqb addr_eqb (Some a) cur.

Lemma fold_step cur l : forall st,
  snd (fold_left (step cur) l st) = kmin_from (snd st) (keys_of (is_cur cur) l) /\
  option_map snd (fst (fold_left (step cur) l st)) = kmin_from (option_map snd (fst st)) (keys_of all l).
Proof.
  induction l as [|[a [r|]] l IH]; intros st; cbn [fold_left keys_of all].
  - now rewrite !kmin_from_nil.
  - rewrite kmin_from_cons. destruct (IH (step cur st (a, Some r))) as [-> ->].
    unfold step. cbn [fst snd]. fold (is_cur cur a). split.
    + destruct (is_cur cur a); cbn [andb]; [now rewrite kmin_from_cons, step_min|reflexivity].
    + f_equal. destruct (fst st) as [[ba kb]|]; [|reflexivity].
      cbn. unfold key_min2. now destruct (key_ltb (sort_key a r) kb).
  - apply IH.
Qed.

Lemma fold_best_addr cur l : forall st ba kb, fst (fold_left (step cur) l st) = Some (ba, kb) ->
  fst st = Some (ba, kb) \/ exists r, In (ba, Some r) l /\ sort_key ba r = kb.
Proof.
  induction l as [|[a [r|]] l IH]; intros st ba kb H; cbn [fold_left] in H; [now left|..];
    apply IH in H as [H|(r' & Hin & Hk)]; try (right; exists r'; split; [now right|exact Hk]).
  - unfold step in H. cbn [fst snd] in H. destruct (is_none_or (fst st) _); [|now left].
    injection H as <- <-. right. exists r. split; [now left|reflexivity].
  - now left.
Qed.

Lemma run_keys i :
  snd (run i) = key_min (keys_of (is_cur (current i)) (paths i)) /\
  option_map snd (fst (run i)) = key_min (keys_of all (paths i)).
Proof. exact (fold_step (current i) (paths i) (None, None)). Qed.

Lemma run_best i :
  match fst (run i) with
  | None => none_of all (paths i)
  | Some (a, k) => (exists r, In (a, Some r) (paths i) /\ sort_key a r = k) /\ is_min all (paths i) k
  end.
Proof.
  pose proof (key_min_spec all (paths i)) as S. rewrite <- (proj2 (run_keys i)) in S.
  destruct (fst (run i)) as [[a k]|] eqn:E; [split|]; try exact S.
  apply fold_best_addr in E as [E|E]; [discriminate|exact E].
Qed.

Lemma run_cur_key i :
  snd (run i) = match current i with
                | None => None
                | Some c => key_min (keys_of (fun x => addr_eqb x c) (paths i))
                end.
Proof.
  rewrite (proj1 (run_keys i)). destruct (current i); [reflexivity|]. apply key_min_none. intros a r _. reflexivity.
Qed.

(* both tuning constants are a few milliseconds in ns; any bound far below 2^127 serves the
   overflow arguments *)
Lemma min_range : 0 < RTT_SWITCHING_MIN <= 1000000000000.
Proof. unfold RTT_SWITCHING_MIN, C24_RTT_SWITCHING_MIN. lia. Qed.
Lemma adv_range : 0 <= IPV6_RTT_ADVANTAGE <= 1000000000000.
Proof. unfold IPV6_RTT_ADVANTAGE, C24_IPV6_RTT_ADVANTAGE. lia. Qed.

Lemma valid_in i a r : valid i = true -> In (a, Some r) (paths i) -> (r <= DURATION_MAX_NANOS)%N.
Proof.
  unfold valid. rewrite forallb_forall. intros H Ha. specialize (H _ Ha). cbn in H. lia.
Qed.

Lemma as_i128_small r : (r <= DURATION_MAX_NANOS)%N -> u128_as_i128 r = Z.of_N r.
Proof.
  intros H. unfold u128_as_i128, DURATION_MAX_NANOS in *.
  rewrite Z.mod_small by lia.
  destruct (Z.leb_spec (Z.of_N r) I128_MAX) as [_|E]; [reflexivity|unfold I128_MAX in E; lia].
Qed.

Lemma bias_range a : - 1000000000000 <= snd (bias_for a) <= 0.
Proof.
  pose proof adv_range. unfold bias_for.
  destruct (N.eqb (kind a) 0); [cbn; lia|]. destruct (N.eqb (kind a) 1); [cbn [snd]; lia|].
  destruct (N.eqb (kind a) 2); cbn; lia.
Qed.

Lemma i128_sat_add_exact x b : I128_MIN <= x + b <= I128_MAX -> i128_sat_add x b = x + b.
Proof. unfold i128_sat_add. lia. Qed.

(* for real Durations the saturating add never saturates *)
Lemma sort_key_valid a r : (r <= DURATION_MAX_NANOS)%N ->
  sort_key a r = (tier_of a, Z.of_N r + snd (bias_for a)) /\
  - 1000000000000 <= snd (sort_key a r) <= 18446744073709551615999999999.
Proof.
  intros H. unfold sort_key, tier_of. rewrite as_i128_small by exact H. cbn [fst snd].
  pose proof (bias_range a) as Hb. unfold DURATION_MAX_NANOS in H.
  generalize dependent (snd (bias_for a)). intros b Hb.
  rewrite i128_sat_add_exact; [split; [reflexivity|]|unfold I128_MIN, I128_MAX]; lia.
Qed.

Lemma sort_key_tier a r : fst (sort_key a r) = tier_of a.
Proof. reflexivity. Qed.

(* under validity the checked add never overflows *)
Lemma decide_valid i :
  valid i = true ->
  model i =
  match fst (run i) with
  | None => Ok None
  | Some (ba, kb) =>
      match snd (run i) with
      | None => Ok (Some ba)
      | Some kc =>
          if negb (tier_eqb (fst kc) (fst kb)) || (snd kb + RTT_SWITCHING_MIN <=? snd kc)
          then Ok (Some ba) else Ok None
      end
  end.
Proof.
  intros Hv. unfold model, decide. pose proof (run_best i) as Hb.
  destruct (fst (run i)) as [[ba [bt bb]]|]; [|reflexivity].
  destruct (snd (run i)) as [[ct cb]|]; [|reflexivity]. cbn [fst snd].
  destruct (negb (tier_eqb ct bt)); [reflexivity|]. cbn [orb].
  destruct Hb as [(r & Hr & Hk) _].
  pose proof (sort_key_valid ba r (valid_in _ _ _ Hv Hr)) as [_ Hrange]. rewrite Hk in Hrange. cbn [snd] in Hrange.
  pose proof min_range.
  unfold i128_checked_add, i128_in, I128_MIN, I128_MAX.
  destruct ((_ <=? bb + RTT_SWITCHING_MIN) && _) eqn:E; [reflexivity|lia].
Qed.

(* the monitor as a proposition (monitor_spec) *)
Definition select_spec (i : input) (o : output) : Prop :=
  exists sel, o = Ok sel /\
  match sel with
  | Some a =>
      exists ka, is_min (fun x => addr_eqb x a) (paths i) ka /\ is_min all (paths i) ka /\
        forall c kc, current i = Some c -> is_min (fun x => addr_eqb x c) (paths i) kc ->
          fst kc <> fst ka \/ snd ka + RTT_SWITCHING_MIN <= snd kc
  | None =>
      none_of all (paths i) \/
      exists c kc kb, current i = Some c /\ is_min (fun x => addr_eqb x c) (paths i) kc /\
        is_min all (paths i) kb /\ fst kc = fst kb /\ snd kc < snd kb + RTT_SWITCHING_MIN
  end.

Lemma switch_iff ka kc :
  negb (tier_eqb (fst kc) (fst ka)) || (snd ka + RTT_SWITCHING_MIN <=? snd kc) = true <->
  fst kc <> fst ka \/ snd ka + RTT_SWITCHING_MIN <= snd kc.
Proof. apply orb_iff; [apply negb_iff, tier_eqb_iff|apply Z.leb_le]. Qed.

Lemma keep_iff kc kb :
  tier_eqb (fst kc) (fst kb) && (snd kc <? snd kb + RTT_SWITCHING_MIN) = true <->
  fst kc = fst kb /\ snd kc < snd kb + RTT_SWITCHING_MIN.
Proof. apply andb_iff; [apply tier_eqb_iff|apply Z.ltb_lt]. Qed.

(* select_spec is not the test clause for clause: it names by is_min what the test computes with
   key_min.  So the proof is a case analysis on the three minima, and only the two comparisons are
   walked (switch_iff, keep_iff): key_min_spec reads each minimum the monitor computes; is_min_unique
   and key_min_some turn the minima the specification names back into them. *)
Lemma monitor_spec i o : valid i = true -> (monitor i o = true <-> select_spec i o).
Proof.
  intros Hv. unfold monitor. rewrite Hv. cbn [negb]. change (fun _ => true) with all.
  destruct o as [sel| |]; [|split; [discriminate|intros (s & [=] & _)]..].
  pose proof (key_min_spec all (paths i)) as Sall.
  destruct (key_min (keys_of all (paths i))) as [kb|]; cbn [min_opt] in Sall.
  2:{ destruct sel as [a|]; split; try discriminate; try reflexivity.
      - intros (s & [= <-] & ka & _ & H & _). destruct (is_min_not_none _ _ _ H Sall).
      - exists None. auto. }
  destruct sel as [a|].
  - pose proof (key_min_spec (fun x => addr_eqb x a) (paths i)) as Sa.
    destruct (key_min (keys_of (fun x => addr_eqb x a) (paths i))) as [ka|]; cbn [min_opt] in Sa.
    2:{ split; [discriminate|]. intros (s & [= <-] & ka & H & _). destruct (is_min_not_none _ _ _ H Sa). }
    split.
    + intros [<-%key_eqb_iff H2]%andb_prop. exists (Some a). split; [reflexivity|]. exists ka. split; [exact Sa|split; [exact Sall|]].
      intros c kc Ecur Hkc. rewrite Ecur, (key_min_some _ _ _ Hkc) in H2. now apply switch_iff.
    + intros (s & [= <-] & ka' & H1 & H2 & H3). pose proof (is_min_unique _ _ _ _ H1 Sa) as ->.
      apply andb_true_intro. split; [apply key_eqb_iff, (is_min_unique _ _ _ _ H2 Sall)|].
      destruct (current i) as [c|]; [|reflexivity].
      pose proof (key_min_spec (fun x => addr_eqb x c) (paths i)) as Sc.
      destruct (key_min _) as [kc|]; [|reflexivity]. apply switch_iff. exact (H3 c kc eq_refl Sc).
  - split.
    + intros H. exists None. split; [reflexivity|]. right.
      destruct (current i) as [c|]; [|discriminate].
      pose proof (key_min_spec (fun x => addr_eqb x c) (paths i)) as Sc.
      destruct (key_min _) as [kc|]; [|discriminate]. apply keep_iff in H.
      exists c, kc, kb. exact (conj eq_refl (conj Sc (conj Sall H))).
    + intros (s & [= <-] & [H|(c & kc & kb' & Ecur & Hkc & Hkb & H)]); [destruct (is_min_not_none _ _ _ Sall H)|].
      rewrite Ecur, (key_min_some _ _ _ Hkc), <- (is_min_unique _ _ _ _ Hkb Sall). now apply keep_iff.
Qed.

(* the monitor recomputes the loop's two minima (run_keys, run_cur_key) and applies the test of
   decide_valid *)
Lemma model_monitor i : monitor i (model i) = true.
Proof.
  unfold monitor. destruct (valid i) eqn:Hv; [|reflexivity]. cbn [negb].
  rewrite (decide_valid i Hv), <- run_cur_key. change (fun _ => true) with all. rewrite <- (proj2 (run_keys i)).
  pose proof (run_best i) as Hb.
  destruct (fst (run i)) as [[ba kb]|]; cbn [option_map snd]; [|reflexivity].
  destruct Hb as [(rb & Hrb & Hkb) Hall].
  (* the selected address attains the least key of all, which is then its own least *)
  assert (Eka : key_min (keys_of (fun x => addr_eqb x ba) (paths i)) = Some kb).
  { apply key_min_some. split; [exists ba, rb; auto using (proj2 (addr_eqb_iff ba ba) eq_refl)|]. intros a r Ha _. now apply Hall. }
  pose proof (proj2 (key_eqb_iff kb kb) eq_refl) as Ekk.
  destruct (snd (run i)) as [kc|]; [destruct (negb _ || _) eqn:E|].
  - rewrite Eka, Ekk. exact E.
  - revert E. unfold tier_eqb. lia.
  - now rewrite Eka, Ekk.
Qed.

Lemma model_select i : valid i = true -> select_spec i (model i).
Proof. intros Hv. apply (monitor_spec i _ Hv), model_monitor. Qed.

Lemma no_panic i : valid i = true -> exists sel, model i = Ok sel.
Proof. intros Hv. destruct (model_select i Hv) as (sel & E & _). eauto. Qed.

(* The next two hold without [valid i], where model_select says nothing: they read [decide]. *)
Lemma selects_member_with_stats i a :
  model i = Ok (Some a) -> exists r, In (a, Some r) (paths i).
Proof.
  unfold model, decide. pose proof (run_best i) as Hb.
  destruct (fst (run i)) as [[ba [bt bb]]|]; [|discriminate].
  destruct Hb as [(r & Hr & _) _].
  destruct (snd (run i)) as [[ct cb]|];
    [destruct (negb _); [|destruct (i128_checked_add _ _); [destruct (_ <=? _)|]]|];
    intros [= <-]; eauto.
Qed.

Lemma none_when_no_stats i :
  (forall a r, ~ In (a, Some r) (paths i)) ->
  model i = Ok None /\ next_selected (current i) None = current i.
Proof.
  intros H. split; [|reflexivity]. unfold model, decide. pose proof (run_best i) as Hb.
  destruct (fst (run i)) as [[ba bk]|]; [|reflexivity].
  destruct Hb as [(r & Hr & _) _]. now apply H in Hr.
Qed.

Lemma min_all_le f l ka kc : is_min all l ka -> is_min f l kc -> key_ltb kc ka = false.
Proof. intros [_ Hl] [(a & r & Hin & _ & <-) _]. now apply Hl. Qed.

Lemma min_tier_primary l k p r :
  is_min all l k -> In (p, Some r) l -> tier_of p = Primary -> fst k = Primary.
Proof.
  intros [_ Hl] Hp Ht. specialize (Hl p r Hp eq_refl). unfold key_ltb in Hl.
  rewrite sort_key_tier, Ht in Hl. cbn [tier_rank] in Hl.
  destruct (fst k); [reflexivity|cbn [tier_rank] in Hl; lia].
Qed.

Lemma selected_in_best_tier i kb :
  valid i = true -> is_min all (paths i) kb ->
  exists sel a, model i = Ok sel /\ next_selected (current i) sel = Some a /\
    tier_of a = fst kb /\ exists ra, In (a, Some ra) (paths i).
Proof.
  intros Hv Hkb. destruct (model_select i Hv) as (sel & E & H). exists sel.
  destruct sel as [a|].
  - destruct H as (ka & [(a' & ra & Hin & ->%addr_eqb_iff & <-) _] & Hall & _).
    exists a. repeat split; eauto. exact (f_equal fst (is_min_unique _ _ _ _ Hall Hkb)).
  - destruct H as [Hn|(c & kc & kb' & Ecur & [(c' & rc & Hin & ->%addr_eqb_iff & <-) _] & Hkb' & Htier & _)].
    + destruct (is_min_not_none _ _ _ Hkb Hn).
    + (* kept: the current path is live and in the best tier *)
      exists c. rewrite Ecur. repeat split; eauto.
      rewrite (is_min_unique _ _ _ _ Hkb Hkb'). exact Htier.
Qed.

Lemma primary_beats_backup i p r :
  valid i = true -> In (p, Some r) (paths i) -> tier_of p = Primary ->
  exists sel a, model i = Ok sel /\ next_selected (current i) sel = Some a /\
    tier_of a = Primary /\ exists ra, In (a, Some ra) (paths i).
Proof.
  intros Hv Hp Ht. pose proof (key_min_spec all (paths i)) as S.
  destruct (key_min _) as [kb|]; [|now specialize (S p r Hp)].
  rewrite <- (min_tier_primary _ _ _ _ S Hp Ht). exact (selected_in_best_tier i kb Hv S).
Qed.

Lemma same_tier_hysteresis i a c ka kc :
  valid i = true ->
  model i = Ok (Some a) -> current i = Some c ->
  is_min (fun x => addr_eqb x a) (paths i) ka ->
  is_min (fun x => addr_eqb x c) (paths i) kc ->
  (fst ka = fst kc /\ snd ka + RTT_SWITCHING_MIN <= snd kc) \/
  (fst ka = Primary /\ fst kc = Backup).
Proof.
  intros Hv Hm Hcur Hka Hkc. destruct (model_select i Hv) as (sel & E & H).
  rewrite Hm in E. injection E as <-. destruct H as (ka' & Hka' & Hall & H).
  rewrite <- (is_min_unique _ _ _ _ Hka Hka') in *. specialize (H c kc Hcur Hkc).
  pose proof (min_all_le _ _ _ _ Hall Hkc) as Hlow.
  (* kc in a better tier than ka contradicts Hlow; in equal tiers only the hysteresis
     disjunct of H is possible *)
  unfold key_ltb in Hlow.
  destruct (fst ka), (fst kc); cbn [tier_rank] in Hlow; try lia; [left|right; auto|left];
    (split; [reflexivity|]; destruct H as [H|H]; [congruence|exact H]).
Qed.

Lemma stable_within_hysteresis i c kc :
  valid i = true -> current i = Some c ->
  is_min (fun x => addr_eqb x c) (paths i) kc ->
  (forall a r, In (a, Some r) (paths i) ->
     tier_rank (fst kc) <= tier_rank (tier_of a) /\
     (tier_of a = fst kc -> snd kc < snd (sort_key a r) + RTT_SWITCHING_MIN)) ->
  model i = Ok None.
Proof.
  intros Hv Hcur Hkc Hall. destruct (model_select i Hv) as ([a|] & E & H); [exfalso|exact E].
  (* a selected path would attain the global minimum ka; kc is not below it, so by Hall both
     are in one tier and ka is not RTT_SWITCHING_MIN better *)
  destruct H as (ka & [(a' & ra & Hin & _ & Hk) _] & Hmin & H).
  destruct (Hall a' ra Hin) as [H1 H2]. rewrite <- (sort_key_tier a' ra), Hk in H1, H2.
  pose proof (min_all_le _ _ _ _ Hmin Hkc) as Hlow.
  assert (Heq : fst ka = fst kc) by (apply tier_rank_inj; unfold key_ltb in Hlow; lia).
  destruct (H c kc Hcur Hkc) as [N|N]; [congruence|]. specialize (H2 Heq). lia.
Qed.

Lemma stable_when_current_best i c kc :
  valid i = true -> current i = Some c ->
  is_min (fun x => addr_eqb x c) (paths i) kc ->
  lower_bound all (paths i) kc ->
  model i = Ok None.
Proof.
  intros Hv Hcur Hkc Hl. eapply stable_within_hysteresis; eauto.
  intros a r Ha. specialize (Hl a r Ha eq_refl). unfold key_ltb in Hl. rewrite sort_key_tier in Hl.
  pose proof min_range. split; [lia|]. intros Ht. rewrite Ht in Hl. lia.
Qed.

Lemma ipv6_credit a r : (r <= DURATION_MAX_NANOS)%N ->
  sort_key a r =
  if N.eqb (kind a) 1 then (Primary, Z.of_N r - IPV6_RTT_ADVANTAGE)
  else if N.eqb (kind a) 2 then (Backup, Z.of_N r)
  else (Primary, Z.of_N r).
Proof.
  intros H. destruct (sort_key_valid a r H) as [-> _]. clear H. unfold tier_of, bias_for.
  destruct (N.eqb_spec (kind a) 0) as [->|_]; [exact (f_equal _ (Z.add_0_r _))|].
  destruct (N.eqb (kind a) 1); [cbn [fst snd]; f_equal; lia|].
  destruct (N.eqb (kind a) 2); exact (f_equal _ (Z.add_0_r _)).
Qed.

Lemma ipv6_vs_ipv4 a4 a6 r4 r6 :
  kind a4 = 0%N -> kind a6 = 1%N -> (r4 <= DURATION_MAX_NANOS)%N -> (r6 <= DURATION_MAX_NANOS)%N ->
  model (mkIn None [(a4, Some r4); (a6, Some r6)]) =
  Ok (Some (if Z.of_N r6 - IPV6_RTT_ADVANTAGE <? Z.of_N r4 then a6 else a4)).
Proof.
  intros K4 K6 H4 H6.
  assert (E4 : sort_key a4 r4 = (Primary, Z.of_N r4)) by (now rewrite ipv6_credit, K4).
  assert (E6 : sort_key a6 r6 = (Primary, Z.of_N r6 - IPV6_RTT_ADVANTAGE)) by (now rewrite ipv6_credit, K6).
  unfold model, run. cbn [fold_left paths current step fst snd is_none_or opt_eqb andb].
  (* both keys are Primary: key_ltb comes down to the comparison of the biased RTTs *)
  rewrite E4, E6. unfold key_ltb. cbn [fst snd tier_rank Z.ltb Z.eqb Z.compare orb andb].
  now destruct (Z.of_N r6 - IPV6_RTT_ADVANTAGE <? Z.of_N r4).
Qed.

Definition v4a := mkAddr 0 1. Definition v4b := mkAddr 0 2.
Definition v6a := mkAddr 1 1. Definition rla := mkAddr 2 1.

(* 5 ms better: switch; 5 ms - 1 ns better: keep *)
Example ex_switch : model (mkIn (Some v4a) [(v4a, Some 20000000%N); (v4b, Some 15000000%N)]) = Ok (Some v4b).
Proof. vm_compute. reflexivity. Qed.
Example ex_keep : model (mkIn (Some v4a) [(v4a, Some 20000000%N); (v4b, Some 15000001%N)]) = Ok None.
Proof. vm_compute. reflexivity. Qed.
(* relay current, slow primary appears: immediate switch *)
Example ex_tier : model (mkIn (Some rla) [(rla, Some 1000000%N); (v4a, Some 1000000000%N)]) = Ok (Some v4a).
Proof. vm_compute. reflexivity. Qed.
(* duplicates: the lowest instance of the current address counts *)
Example ex_dup : model (mkIn (Some v4a) [(v4a, Some 30000000%N); (v4b, Some 15000000%N); (v4a, Some 19000000%N)]) = Ok None.
Proof. vm_compute. reflexivity. Qed.
Example ex_v6 : model (mkIn None [(v4a, Some 10000000%N); (v6a, Some 12999999%N)]) = Ok (Some v6a).
Proof. vm_compute. reflexivity. Qed.
Example ex_max : model (mkIn (Some v4a) [(v4a, Some DURATION_MAX_NANOS); (v4b, Some DURATION_MAX_NANOS)]) = Ok None.
Proof. vm_compute. reflexivity. Qed.
Example ex_valid : valid (mkIn (Some v4a) [(v4a, Some DURATION_MAX_NANOS); (v4b, None)]) = true.
Proof. vm_compute. reflexivity. Qed.
