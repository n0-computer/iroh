(* C17 — poll_recv.  take_segments (one call: take_step of Proofs/C16.v) under num_segments cuts
   an item between two of its datagrams (take_spec), so in every iteration (iter_ok) the
   datagrams handed out, followed by the fitting ones still held, stay the fitting ones that
   arrived (history_inv); an iteration shrinks qsize, which is why the fuel suffices. *)
From V Require Import Lib.Base Lib.Lists Lib.MachineInt Model.C16 Model.C17 Proofs.C16.
From V Require Import Lib.LiaBool.
Import C16 C17.
Open Scope N_scope.

Lemma chunks_small f ss c : len c <= ss -> chunks f ss c = [c].
Proof.
  intros H. destruct f; cbn [chunks]; [reflexivity|]. now destruct (N.leb_spec (len c) ss); [|lia].
Qed.

Lemma chunks_fuel ss : 1 <= ss -> forall f1 f2 c,
  (length c <= f1)%nat -> (length c <= f2)%nat -> chunks f1 ss c = chunks f2 ss c.
Proof.
  intros Hss. induction f1 as [|f1 IH]; intros f2 c H1 H2.
  - rewrite !chunks_small by (unfold len; lia). reflexivity.
  - destruct (N.le_gt_cases (len c) ss) as [H|H]; [now rewrite !chunks_small|].
    unfold len in H. destruct f2 as [|f2]; [lia|]. cbn [chunks].
    destruct (N.leb_spec (len c) ss); [reflexivity|].
    f_equal. apply IH; rewrite skipn_length; lia.
Qed.

Lemma split_small ss c : len c <= ss -> split ss c = [c].
Proof. apply chunks_small. Qed.

Lemma split_big ss c : 1 <= ss -> ss < len c ->
  split ss c = firstn (N.to_nat ss) c :: split ss (skipn (N.to_nat ss) c).
Proof.
  intros Hss H. unfold split, len in *. destruct (length c) eqn:E; [lia|]. cbn [chunks].
  unfold len. rewrite E. destruct (N.leb_spec (N.of_nat (S n)) ss); [lia|].
  f_equal. apply chunks_fuel; [exact Hss| |]; rewrite skipn_length; lia.
Qed.

(* a cut after a positive number of full chunks, with something behind it, falls between two chunks *)
Lemma split_app ss m : 1 <= ss -> (1 <= m)%nat -> forall a b,
  length a = (m * N.to_nat ss)%nat -> b <> [] -> split ss (a ++ b) = split ss a ++ split ss b.
Proof.
  intros Hss Hm. induction Hm as [|m Hm IH]; intros a b Ha Hb.
  (* one chunk or several: the first chunk of a ++ b is cut out of a *)
  all: rewrite (split_big ss (a ++ b) Hss)
    by (unfold len; rewrite app_length; destruct b; [easy|cbn [length]; lia]).
  all: rewrite firstn_app, skipn_app; replace (N.to_nat ss - length a)%nat with 0%nat by lia.
  all: cbn [firstn skipn]; rewrite app_nil_r.
  - rewrite firstn_all2, skipn_all2 by lia. now rewrite (split_small ss a) by (unfold len; lia).
  - rewrite IH by (rewrite ?skipn_length; auto; lia).
    now rewrite (split_big ss a Hss) by (unfold len; lia).
Qed.

Lemma chunks_le_whole ss : forall f c, Forall (fun d => len d <= len c) (chunks f ss c).
Proof.
  induction f as [|f IH]; intros c; cbn [chunks]; [|destruct (len c <=? ss)];
    try (repeat constructor; lia).
  constructor; [unfold len; rewrite firstn_length; lia|].
  eapply Forall_impl; [|apply IH]. cbn beta. intros d. unfold len. rewrite skipn_length. lia.
Qed.

(* mon and the statements of Props/C17.v write [filter (fits B)] out; they meet fitl by conversion *)
Definition fitl (B : N) (l : list tdg) : list tdg := filter (fits B) l.

Lemma fitl_app B a b : fitl B (a ++ b) = fitl B a ++ fitl B b.
Proof. apply filter_app. Qed.

Lemma fitl_all B k l : Forall (fun d => len d <= B) l -> fitl B (map (pair k) l) = map (pair k) l.
Proof.
  induction 1 as [|d l Hd _ IH]; [reflexivity|].
  unfold fitl in *. cbn [map filter]. unfold fits at 1. cbn [snd].
  destruct (N.leb_spec (len d) B); [|lia]. now rewrite IH.
Qed.

Lemma fitl_none B k d : B < len d -> fitl B [(k, d)] = [].
Proof. intros H. unfold fitl, fits. cbn. now destruct (N.leb_spec (len d) B); [lia|]. Qed.

(* a piece or remainder of a batch with segment size ss holds the ss-chunks of its bytes: the
   segment size is dropped only once a single datagram is left *)
Lemma dgs_of_left e ss d : left_of e ss d -> dgs_of d = split ss (contents d).
Proof.
  intros [_ [Hs|[Hs Hle]]]; unfold dgs_of; rewrite Hs; [reflexivity|]. now rewrite split_small.
Qed.

Lemma dgs_of_le_whole d : Forall (fun x => len x <= len (contents d)) (dgs_of d).
Proof. unfold dgs_of. destruct (seg d); [apply chunks_le_whole|]. repeat constructor. lia. Qed.

(* an emptied item leaves the transport *)
Definition left_dgs (d : dg) : list bytes := match contents d with [] => [] | _ :: _ => dgs_of d end.

(* take_step read for a batch with segment size whose n segments fit a usize: the cut falls
   between two datagrams *)
Lemma take_segments_cut d ss n piece rest :
  seg d = Some ss -> wf_dg d = true -> 1 <= n -> n * ss <= U64_MAX ->
  take_segments d n = Ok (piece, rest) ->
  split ss (contents d) = dgs_of piece ++ left_dgs rest /\
  wf_dg rest = true /\
  (contents rest = [] \/ (length (contents rest) < length (contents d))%nat) /\
  len (contents piece) <= n * ss /\ (n = 1 -> seg piece = None).
Proof.
  intros Hs Hwf Hn Hsat Ht. unfold wf_dg in Hwf. rewrite Hs in Hwf. assert (Hss : 1 <= ss) by lia.
  destruct (take_step (ecn d) n ss d Hn Hss (conj eq_refl (or_introl Hs)))
    as (p & r & E & Hcat & Hp & Hr & Hcut).
  rewrite E in Ht. injection Ht as <- <-. rewrite (N.min_l _ _ Hsat) in Hcut.
  split; [|split; [|split; [|split]]].
  - rewrite <- Hcat, (dgs_of_left _ ss p (piece_left _ _ _ _ Hp)). unfold left_dgs.
    rewrite (dgs_of_left _ ss r Hr).
    (* nothing is left, or the piece is n full segments *)
    destruct Hcut as [->|[_ Hlen]]; [now rewrite !app_nil_r|].
    destruct (contents r); [now rewrite !app_nil_r|].
    apply (split_app ss (N.to_nat n)); [exact Hss|lia|unfold len in Hlen; lia|discriminate].
  - destruct Hr as [_ [Hs'|[Hs' _]]]; unfold wf_dg; rewrite Hs'; [exact Hwf|reflexivity].
  - destruct Hcut as [H|[H _]]; auto.
  - apply Hp.
  - intros ->. destruct Hp as (_ & Hle & [[_ H]|[H _]]); [lia|exact H].
Qed.

Lemma take_spec b d piece rest :
  b <= USIZE_MAX -> wf_dg d = true ->
  take_segments d (num_segments b d) = Ok (piece, rest) ->
  dgs_of d = dgs_of piece ++ left_dgs rest /\
  wf_dg rest = true /\
  (contents rest = [] \/ (length (contents rest) < length (contents d))%nat) /\
  (b < len (contents piece) -> dgs_of piece = [contents piece]).
Proof.
  destruct d as [e [ss|] c]; unfold wf_dg, num_segments; cbn [seg contents]; intros Hb Hwf Ht.
  2:{ (* no segment size: everything is taken *)
      injection Ht as <- <-. auto. }
  assert (Hss : 1 <= ss <= U16_MAX) by lia.
  assert (Hfit : N.max (b / ss) 1 * ss <= N.max b ss) by (pose proof (N.mul_div_le b ss); lia).
  apply (take_segments_cut _ ss) in Ht as (Hcut & Hwr & Hlen & Hle & Hseg); [|reflexivity|assumption|apply N.le_max_r|].
  2:{ (* a usize has 64 bits: USIZE_MAX is U64_MAX, where u64_sat_mul saturates *)
      apply (N.le_trans _ _ _ Hfit), N.max_lub; [exact Hb|].
      apply (N.le_trans _ _ _ (proj2 Hss)). discriminate. }
  split; [exact Hcut|]. split; [exact Hwr|]. split; [exact Hlen|].
  (* the piece is longer than the buffer only if a single stride is *)
  intros Hdrop. unfold dgs_of. now rewrite Hseg by (rewrite N.div_small by lia; reflexivity).
Qed.

Definition wf_item (it : item) : Prop := wf_dg (dgs it) = true.
Definition wf_st (s : st) : Prop :=
  (forall it, pending s = Some it -> wf_item it) /\ Forall wf_item (chan s).
(* the datagrams still held that fit a buffer of size B: what the polls to come hand out, in
   this order, if every buffer has that size *)
Definition held (B : N) (s : st) : list tdg := fitl B (queue_dgs s).
Definition slot_ok (sl : slot) : Prop := s_len sl = len (s_data sl).

Lemma next_item_none s : next_item s = None -> pending s = None /\ chan s = [].
Proof.
  unfold next_item. destruct (pending s); [discriminate|]. destruct (chan s); [auto|discriminate].
Qed.

(* poll_recv_queue only moves the head of the queue into pending_item *)
Lemma next_item_some s it s1 : wf_st s -> next_item s = Some (it, s1) ->
  exists ch, s1 = mkSt (Some it) ch (closed s) (wk s) /\
    wf_st s1 /\ queue_dgs s1 = queue_dgs s /\ qsize s1 = qsize s.
Proof.
  intros [Hp Hc]. unfold next_item. destruct s as [[p|] ch cl w]; cbn [pending chan closed wk] in *.
  - intros [= <- <-]. exists ch. repeat split; auto.
  - destruct ch as [|x ch]; [discriminate|]. intros [= <- <-]. exists ch. inversion Hc.
    repeat split; cbn [pending chan]; auto. now intros ? [= <-].
Qed.

Lemma slot_dgs_slot_of it piece :
  slot_dgs (slot_of it piece) = map (pair (src it)) (dgs_of piece).
Proof.
  unfold slot_dgs, slot_of, dgs_of. cbn [s_src s_stride s_data].
  destruct (seg piece); [reflexivity|]. now rewrite split_small.
Qed.

(* s2: the state an iteration leaves; out: the slot it fills, if any *)
Definition iter_ok (b : N) (s s2 : st) (out : list slot) : Prop :=
  wf_st s2 /\ closed s2 = closed s /\ (qsize s2 < qsize s)%nat /\
  Forall slot_ok out /\ flat_map slot_dgs out ++ held b s2 = held b s.

Lemma iter_spec b s it s1 piece rest :
  b <= USIZE_MAX -> wf_st s -> next_item s = Some (it, s1) ->
  take_segments (dgs it) (num_segments b (dgs it)) = Ok (piece, rest) ->
  iter_ok b s
    (mkSt (match contents rest with [] => None | _ :: _ => Some (mkItem (src it) rest) end)
          (chan s1) (closed s1) (wk s1))
    (if b <? len (contents piece) then [] else [slot_of it piece]).
Proof.
  intros Hb Hwf En Ht. destruct (next_item_some s it s1 Hwf En) as (ch & -> & [Hwit Hwch] & Hq & Hsz).
  destruct (take_spec b (dgs it) piece rest Hb (Hwit it eq_refl) Ht) as (Hdgs & Hwr & Hlen & Hdrop).
  unfold iter_ok. cbn [chan closed wk].
  split; [|split; [reflexivity|split; [|split]]].
  - split; cbn [pending chan]; [|exact Hwch].
    intros it' E. destruct (contents rest); [discriminate|]. injection E as <-. exact Hwr.
  - rewrite <- Hsz. unfold qsize, item_size. cbn [pending chan].
    destruct Hlen as [->|Hlen]; [lia|].
    destruct (contents rest) eqn:E; cbn [dgs contents]; rewrite ?E; lia.
  - destruct (b <? _); repeat constructor.
  - unfold held. rewrite <- Hq. unfold queue_dgs. cbn [pending chan].
    change (item_dgs it) with (map (pair (src it)) (dgs_of (dgs it))).
    rewrite Hdgs, map_app, !fitl_app, <- app_assoc. f_equal; [|f_equal].
    + destruct (N.ltb_spec b (len (contents piece))) as [H|H]; cbn [flat_map].
      * rewrite (Hdrop H). symmetry. now apply fitl_none.
      * rewrite app_nil_r, slot_dgs_slot_of. symmetry. apply fitl_all.
        eapply Forall_impl; [|apply dgs_of_le_whole]. cbn beta. lia.
    + unfold left_dgs. destruct (contents rest); reflexivity.
Qed.

(* the result [finish] (Model/C17.v) returns for the slots filled; loop_spec meets it by conversion *)
Definition result_of (l : list slot) : presult := match l with [] => Pending | _ => Ready l end.

(* What the loop started in s with buffers bufs and slots acc returns.  Last premise: buffers
   stay unused only when the open queue was found empty, and then the waker is registered. *)
Inductive loop_post (s : st) (bufs : list N) (acc : list slot) : st * presult * bool -> Prop :=
| loop_closed s' reg : closed s = true -> loop_post s bufs acc (s', ErrClosed, reg)
| loop_slots s' r reg new :
    r = result_of (acc ++ new) ->
    (forall B, Forall (eq B) bufs -> flat_map slot_dgs new ++ held B s' = held B s) ->
    wf_st s' -> closed s' = closed s ->
    (qsize s' + length new <= qsize s)%nat ->
    Forall slot_ok new ->
    ((length new < length bufs)%nat ->
     reg = true /\ pending s' = None /\ chan s' = [] /\ wk s' = true /\ closed s' = false) ->
    loop_post s bufs acc (s', r, reg).

(* out = [] is a drop, after which the loop goes on with the same buffers (skipn 0), out = [sl]
   fills b and leaves bs (skipn 1) *)
Lemma loop_post_iter b bs s s2 acc out res :
  iter_ok b s s2 out -> (length out <= 1)%nat ->
  loop_post s2 (skipn (length out) (b :: bs)) (acc ++ out) res ->
  loop_post s (b :: bs) acc res.
Proof.
  intros (_ & Hcl & Hsz & Hok & HQ) Hout [s' reg Hc|s' r reg new Hr HQ' Hw' Hc' Hs' Hok' Hshort].
  { apply loop_closed. congruence. }
  apply loop_slots with (new := out ++ new).
  - now rewrite app_assoc.
  - intros B HB. inversion HB as [|? ? <- HB']. rewrite flat_map_app, <- HQ, <- app_assoc. f_equal. apply HQ'.
    destruct out as [|? [|]]; [exact HB|exact HB'|cbn in Hout; clear - Hout; lia].
  - exact Hw'.
  - congruence.
  - rewrite app_length. clear - Hs' Hsz Hout. lia.
  - apply Forall_app. auto.
  - intros E. apply Hshort. rewrite skipn_length. rewrite app_length in E. cbn [length] in *. clear - E Hout. lia.
Qed.

Definition all_le (bufs : list N) : Prop := Forall (fun b => b <= USIZE_MAX) bufs.

Lemma loop_spec : forall fuel s bufs acc,
  all_le bufs -> wf_st s -> (qsize s < fuel)%nat ->
  loop_post s bufs acc (poll_loop fuel s bufs acc).
Proof.
  induction fuel as [|f IH]; intros s bufs acc Hb Hwf Hfuel; [lia|].
  destruct bufs as [|b bs]; cbn [poll_loop].
  - apply loop_slots with (new := []); auto; [now rewrite app_nil_r|cbn [length]; lia..].
  - pose proof Hb as [Hb1 Hbs]%Forall_cons_iff.
    destruct (next_item s) as [[it s1]|] eqn:En.
    2:{ apply next_item_none in En as [Ep Ec].
      destruct (closed s) eqn:Ecl; [now apply loop_closed|].
      apply loop_slots with (new := []); auto; [now rewrite app_nil_r|rewrite Nat.add_0_r; apply le_n]. }
    destruct (take_total (dgs it) (num_segments b (dgs it))) as (piece & rest & Ht). rewrite Ht.
    pose proof (iter_spec b s it s1 piece rest Hb1 Hwf En Ht) as Hit.
    assert (Hlt : forall s2 out, iter_ok b s s2 out -> (qsize s2 < f)%nat)
      by (intros s2 out (_ & _ & Hsz & _); clear - Hsz Hfuel; lia).
    destruct (b <? len (contents piece)); eapply loop_post_iter; try exact Hit; try (cbn; lia).
    + (* does not fit: dropped, same buffer again *)
      rewrite app_nil_r. apply IH; [exact Hb|apply Hit|exact (Hlt _ _ Hit)].
    + apply IH; [exact Hbs|apply Hit|exact (Hlt _ _ Hit)].
Qed.

Lemma poll_spec s bufs :
  all_le bufs -> wf_st s -> loop_post s bufs [] (poll_recv s bufs).
Proof. intros Hb Hwf. unfold poll_recv. apply loop_spec; auto. Qed.

Lemma progress_or_registered s bufs :
  wf_st s -> all_le bufs -> bufs <> [] ->
  let '(s', r, reg) := poll_recv s bufs in
  (exists slots, r = Ready slots /\ slots <> [] /\ (qsize s' < qsize s)%nat) \/
  (r = ErrClosed /\ closed s = true) \/
  (r = Pending /\ reg = true /\ pending s' = None /\ chan s' = [] /\ wk s' = true /\ closed s' = false).
Proof.
  intros Hwf Hb Hne.
  destruct (poll_spec s bufs Hb Hwf) as [s' reg Hc|s' r reg new Hr _ _ _ Hs _ Hshort]; [auto|].
  cbn [app] in Hr. destruct new as [|sl new].
  - right. right. destruct bufs; [congruence|]. split; [exact Hr|]. apply Hshort, Nat.lt_0_succ.
  - left. exists (sl :: new). split; [exact Hr|]. split; [discriminate|]. cbn [length] in Hs. lia.
Qed.

Lemma pending_then_arrival_wakes s bufs it :
  wf_st s -> all_le bufs -> bufs <> [] ->
  let '(s', r, _) := poll_recv s bufs in
  r = Pending -> snd (step s' (Arrive it)) = OArrive true.
Proof.
  intros Hwf Hb Hne. pose proof (progress_or_registered s bufs Hwf Hb Hne) as H.
  destruct (poll_recv s bufs) as [[s' r] reg]. intros Hr. subst r.
  destruct H as [(sl & E & _)|[[E _]|(_ & _ & _ & _ & Hw & Hc)]]; try discriminate.
  cbn [step]. now rewrite Hc, Hw.
Qed.

Fixpoint poll_n (s : st) (B : N) (n : nat) : st * list presult :=
  match n with
  | O => (s, [])
  | S n' => let '(s', r, _) := poll_recv s [B] in
            let '(s'', rs) := poll_n s' B n' in (s'', r :: rs)
  end.

Lemma drains : forall n s B, wf_st s -> B <= USIZE_MAX -> (qsize s < n)%nat ->
  exists r, In r (snd (poll_n s B n)) /\ (r = Pending \/ r = ErrClosed).
Proof.
  induction n as [|n IH]; intros s B Hwf HB Hq; [lia|].
  cbn [poll_n].
  assert (Hb : all_le [B]) by (constructor; [exact HB|constructor]).
  destruct (poll_spec s [B] Hb Hwf) as [s' reg _|s' r reg new -> _ Hw' _ Hs _ _].
  { exists ErrClosed. destruct (poll_n s' B n). cbn. auto. }
  destruct new as [|sl new].
  { exists Pending. destruct (poll_n s' B n). cbn. auto. }
  (* a Ready poll has consumed queued input *)
  cbn [length] in Hs. destruct (IH s' B Hw' HB ltac:(lia)) as (r' & Hin & Hr').
  exists r'. destruct (poll_n s' B n). split; [right; exact Hin|exact Hr'].
Qed.

Definition ev_ok (B : N) (e : ev) : Prop :=
  match e with
  | Arrive it => wf_item it
  | Poll bufs => Forall (eq B) bufs
  | Close => False
  end.

Lemma step_poll_uniform B s bufs :
  B <= USIZE_MAX -> Forall (eq B) bufs -> wf_st s -> closed s = false ->
  exists s' new reg, step s (Poll bufs) = (s', OPoll (result_of new) reg (digest s')) /\
    flat_map slot_dgs new ++ held B s' = held B s /\
    wf_st s' /\ closed s' = false /\ Forall slot_ok new /\
    (new = [] -> bufs <> [] -> reg = true /\ wk s' = true /\ held B s' = []).
Proof.
  intros HB Hb Hwf Hcl.
  assert (Hle : all_le bufs) by (eapply Forall_impl; [|exact Hb]; now intros a <-).
  cbn [step]. destruct (poll_spec s bufs Hle Hwf) as [s' reg Hc|s' r reg new -> HQ Hw' Hc' _ Hok Hshort]; [congruence|].
  exists s', new, reg. split; [reflexivity|]. split; [now apply HQ|]. split; [exact Hw'|].
  split; [congruence|]. split; [exact Hok|]. intros -> Hne. destruct bufs; [congruence|].
  destruct (Hshort (Nat.lt_0_succ _)) as (-> & Hp & Hch & Hw & _).
  unfold held, queue_dgs. rewrite Hp, Hch. repeat split. exact Hw.
Qed.

Lemma held_arrive B s it :
  held B (mkSt (pending s) (chan s ++ [it]) false false) = held B s ++ fitl B (item_dgs it).
Proof.
  unfold held, queue_dgs. cbn [pending chan]. rewrite flat_map_app. cbn [flat_map].
  rewrite app_nil_r, app_assoc. apply fitl_app.
Qed.

Lemma wf_arrive s it : wf_st s -> wf_item it -> wf_st (mkSt (pending s) (chan s ++ [it]) false false).
Proof.
  intros [H1 H2] Hi. split; cbn [pending chan]; [exact H1|].
  apply Forall_app. split; [exact H2|]. constructor; [exact Hi|constructor].
Qed.

Lemma run_cons s e evs : run s (e :: evs) = snd (step s e) :: run (fst (step s e)) evs.
Proof. cbn [run]. destruct (step s e); reflexivity. Qed.
Lemma final_cons s e evs : final s (e :: evs) = final (fst (step s e)) evs.
Proof. reflexivity. Qed.

Lemma step_arrive s it : closed s = false ->
  step s (Arrive it) = (mkSt (pending s) (chan s ++ [it]) false false, OArrive (wk s)).
Proof. intros H. cbn [step]. now rewrite H. Qed.

Lemma step_poll_nil s : step s (Poll []) = (s, OPoll Pending false (digest s)).
Proof. reflexivity. Qed.

Lemma history_inv B : B <= USIZE_MAX -> forall evs s,
  wf_st s -> closed s = false -> Forall (ev_ok B) evs ->
  delivered_of (run s evs) ++ held B (final s evs) = held B s ++ fitl B (arrivals_of evs).
Proof.
  (* unfolded first, so that the induction hypothesis speaks of the same [flat_map]s as the step *)
  intros HB. unfold delivered_of, arrivals_of. induction evs as [|e evs IH]; intros s Hwf Hcl Hev.
  - cbn. now rewrite app_nil_r.
  - apply Forall_cons_iff in Hev as [He Hev']. rewrite run_cons, final_cons. cbn [flat_map].
    destruct e as [it|bufs|]; [| |destruct He].
    + rewrite (step_arrive s it Hcl). cbn [fst snd app].
      rewrite IH by (auto using wf_arrive). now rewrite held_arrive, fitl_app, app_assoc.
    + destruct (step_poll_uniform B s bufs HB He Hwf Hcl)
        as (s' & new & reg & -> & HQ & Hw' & Hc' & _).
      cbn [fst snd app]. rewrite <- app_assoc, IH, app_assoc by assumption. f_equal.
      rewrite <- HQ. now destruct new.
Qed.

Lemma st0_wf : wf_st st0.
Proof. split; cbn; [discriminate|constructor]. Qed.

Lemma recv_in_order_exactly_once B evs :
  B <= USIZE_MAX -> Forall (ev_ok B) evs ->
  delivered_of (model evs) ++ fitl B (queue_dgs (final st0 evs)) = fitl B (arrivals_of evs).
Proof. intros HB Hev. exact (history_inv B HB evs st0 st0_wf eq_refl Hev). Qed.

Lemma drained_all_delivered B evs :
  B <= USIZE_MAX -> Forall (ev_ok B) evs ->
  pending (final st0 evs) = None -> chan (final st0 evs) = [] ->
  delivered_of (model evs) = fitl B (arrivals_of evs).
Proof.
  intros HB Hev Hp Hc. rewrite <- (recv_in_order_exactly_once B evs HB Hev).
  unfold queue_dgs. rewrite Hp, Hc. cbn. now rewrite app_nil_r.
Qed.

Lemma tdg_eqb_iff a b : tdg_eqb a b = true <-> a = b.
Proof.
  destruct a, b. unfold tdg_eqb. cbn [fst snd]. rewrite andb_true_iff, N.eqb_eq, bytes_eqb_iff.
  split; [intros [-> ->]|intros [= -> ->]]; auto.
Qed.

Lemma is_prefix_iff : forall a b, is_prefix a b = true <-> exists rest, b = a ++ rest.
Proof.
  induction a as [|x a IH]; intros b; cbn [is_prefix].
  - split; [intros _; now exists b|reflexivity].
  - destruct b as [|y b].
    + split; [discriminate|intros [r H]; discriminate].
    + rewrite andb_true_iff, IH, tdg_eqb_iff. split.
      * intros [-> [r ->]]. now exists r.
      * intros [r [= -> ->]]. split; [reflexivity|now exists r].
Qed.

Lemma forallb_slot_ok l :
  forallb (fun sl => N.eqb (s_len sl) (len (s_data sl))) l = true <-> Forall slot_ok l.
Proof. apply forallb_Forall_iff. intros sl. apply N.eqb_eq. Qed.

(* ghost state of [mon]: what was delivered, followed by the fitting datagrams still held, is
   what arrived *)
Lemma mon_run B : B <= USIZE_MAX -> forall evs s arr del wt,
  wf_st s -> closed s = false -> forallb wf_ev evs = true -> Forall (eq B) (buf_sizes evs) ->
  del ++ held B s = arr -> (wt = true -> wk s = true) ->
  mon B evs (run s evs) arr del wt = true.
Proof.
  intros HB. induction evs as [|e evs IH];
    intros s arr del wt Hwf Hcl Hev Hbuf Hinv Hwait.
  - reflexivity.
  - rewrite run_cons. cbn [forallb] in Hev. apply andb_prop in Hev as [He Hev].
    destruct e as [it|bufs|].
    + rewrite (step_arrive s it Hcl). cbn [fst snd mon].
      apply andb_true_intro. split.
      { destruct wt; [now apply Hwait|reflexivity]. }
      apply IH; auto using wf_arrive.
      now rewrite held_arrive, app_assoc, Hinv.
    + cbn [buf_sizes] in Hbuf. apply Forall_app in Hbuf as [Hb1 Hb2].
      destruct bufs as [|b bs].
      * rewrite step_poll_nil. cbn [fst snd mon]. apply IH; auto.
      * destruct (step_poll_uniform B s (b :: bs) HB Hb1 Hwf Hcl)
          as (s' & new & reg & -> & HQ & Hw' & Hc' & Hok & Hnone).
        cbn [fst snd]. destruct new as [|sl new]; cbn [result_of mon].
        -- (* Pending: nothing that fits is held any more *)
           destruct (Hnone eq_refl ltac:(discriminate)) as (-> & Hw & HQ0).
           rewrite HQ0 in HQ. cbn [flat_map app] in HQ. rewrite <- HQ, app_nil_r in Hinv.
           rewrite (proj2 (list_eqb_iff _ tdg_eqb_iff _ _) Hinv). cbn [andb].
           apply IH; auto. now rewrite HQ0, app_nil_r.
        -- rewrite (proj2 (forallb_slot_ok _) Hok). cbn [negb andb].
           assert (E : arr = (del ++ flat_map slot_dgs (sl :: new)) ++ held B s')
             by (now rewrite <- app_assoc, HQ).
           rewrite (proj2 (is_prefix_iff _ _) (ex_intro _ _ E)). cbn [andb].
           apply IH; auto. discriminate.
    + reflexivity.
Qed.

Lemma uniform_iff evs B :
  uniform evs = Some B <-> buf_sizes evs <> [] /\ Forall (eq B) (buf_sizes evs).
Proof.
  unfold uniform. destruct (buf_sizes evs) as [|b bs]; [split; [discriminate|now intros [[] _]]|].
  pose proof (forallb_Forall_iff _ _ (N.eqb_eq b) bs) as E.
  split.
  - destruct (forallb (N.eqb b) bs); [|discriminate]. intros [= <-].
    split; [discriminate|]. constructor; [reflexivity|now apply E].
  - intros [_ H]. inversion H as [|? ? <- Hbs]. now rewrite (proj2 E Hbs).
Qed.

Lemma model_monitor : forall i, monitor i (model i) = true.
Proof.
  intros i. unfold monitor. destruct (forallb wf_ev i) eqn:Ew; [|reflexivity]. cbn [negb].
  destruct (uniform i) as [B|] eqn:Eu; [|reflexivity].
  destruct (N.ltb_spec U64_MAX B); [reflexivity|].
  apply mon_run; auto; try discriminate; [apply st0_wf|now apply uniform_iff].
Qed.

Definition hist := list (ev * obs).

(* the events the property speaks about: those before the first Close *)
Fixpoint live (evs : list ev) : list ev :=
  match evs with
  | [] => []
  | Close :: _ => []
  | e :: r => e :: live r
  end.

(* the datagrams that arrived during [h] and fit a buffer of size B, in order of arrival *)
Definition arrived (B : N) (h : hist) : list tdg := filter (fits B) (arrivals_of (map fst h)).

(* the datagrams handed to QUIC during [h], in order: the slots of every Ready poll that had
   at least one buffer *)
Definition handed (h : hist) : list tdg :=
  flat_map (fun x => match x with
                     | (Poll (_ :: _), OPoll (Ready sl) _ _) => flat_map slot_dgs sl
                     | _ => []
                     end) h.

(* the poller is waiting after [h]: the last step of [h] other than polls without buffers is a
   poll (with at least one buffer) that returned Pending *)
Definition waiting (h : hist) : Prop :=
  exists h1 h2 bufs reg p,
    h = h1 ++ (Poll bufs, OPoll Pending reg p) :: h2 /\ bufs <> [] /\
    Forall (fun x => fst x = Poll []) h2.

(* what must hold of observation [o] of event [e] made after history [h] *)
Definition step_ok (B : N) (h : hist) (e : ev) (o : obs) : Prop :=
  match e, o with
  | Arrive _, OArrive woken => waiting h -> woken = true
  | Poll [], OPoll _ _ _ => True
  | Poll (_ :: _), OPoll (Ready slots) _ _ =>
      slots <> [] /\ Forall (fun sl => s_len sl = len (s_data sl)) slots /\
      exists rest, arrived B h = handed h ++ flat_map slot_dgs slots ++ rest
  | Poll (_ :: _), OPoll Pending reg _ => reg = true /\ handed h = arrived B h
  | _, _ => False
  end.

(* every event before the first Close has an observation (exactly one each when the queue is
   never closed), and every such observation is right given the history before it *)
Definition spec (B : N) (evs : list ev) (os : list obs) : Prop :=
  (In Close evs -> (length (live evs) <= length os)%nat) /\
  (~ In Close evs -> length os = length evs) /\
  forall h e o tl, combine (live evs) os = h ++ (e, o) :: tl -> step_ok B h e o.

Lemma arrived_snoc B h e o :
  arrived B (h ++ [(e, o)]) =
  arrived B h ++ match e with Arrive it => filter (fits B) (item_dgs it) | _ => [] end.
Proof.
  unfold arrived, arrivals_of. rewrite map_app, flat_map_app, filter_app. cbn [map fst flat_map].
  rewrite app_nil_r. destruct e; reflexivity.
Qed.

Lemma handed_snoc h x :
  handed (h ++ [x]) = handed h ++ match x with
                                  | (Poll (_ :: _), OPoll (Ready sl) _ _) => flat_map slot_dgs sl
                                  | _ => []
                                  end.
Proof. unfold handed. rewrite flat_map_app. cbn [flat_map]. now rewrite app_nil_r. Qed.

Lemma waiting_snoc h e o :
  waiting (h ++ [(e, o)]) <->
  match e, o with
  | Poll [], _ => waiting h
  | Poll (_ :: _), OPoll Pending _ _ => True
  | _, _ => False
  end.
Proof.
  split.
  - (* the last element of the witness is the Pending poll itself, or a poll without buffers *)
    intros (h1 & h2 & bufs & reg & p & E & Hb & HF).
    induction h2 as [|z h2 _] using rev_ind.
    + apply app_inj_tail in E as [_ [= -> ->]]. destruct bufs; [now elim Hb|exact I].
    + rewrite app_comm_cons, app_assoc in E. apply app_inj_tail in E as [-> <-].
      apply Forall_app in HF as [HF HF1]. inversion HF1 as [|? ? He _]. cbn in He. subst e.
      exists h1, h2, bufs, reg, p. auto.
  - destruct e as [it|[|b bs]|]; try contradiction; [|destruct o as [|[]|]; try contradiction].
    + intros (h1 & h2 & bufs & reg & p & -> & Hb & HF).
      exists h1, (h2 ++ [(Poll [], o)]), bufs, reg, p. rewrite <- app_assoc. repeat split; [exact Hb|].
      apply Forall_app. split; [exact HF|]. now constructor.
    + intros _. exists h, [], (b :: bs), reg, p. repeat split; [discriminate|constructor].
Qed.

Lemma not_waiting_nil : ~ waiting [].
Proof. intros (h1 & h2 & bufs & reg & p & E & _). destruct h1; discriminate. Qed.

(* the two parts of [spec], the second after a history hpre: [spec B evs os] is
   [len_ok evs os /\ steps_ok B [] evs os] up to and_assoc, [] ++ h computing to h *)
Definition steps_ok (B : N) (hpre : hist) (evs : list ev) (os : list obs) : Prop :=
  forall h e o tl, combine (live evs) os = h ++ (e, o) :: tl -> step_ok B (hpre ++ h) e o.

Definition len_ok (evs : list ev) (os : list obs) : Prop :=
  (In Close evs -> (length (live evs) <= length os)%nat) /\ (~ In Close evs -> length os = length evs).

Lemma live_cons e evs : e <> Close -> live (e :: evs) = e :: live evs.
Proof. destruct e; try reflexivity. now intros []. Qed.

Lemma steps_ok_cons B hpre e evs o os : e <> Close ->
  steps_ok B hpre (e :: evs) (o :: os) <->
  step_ok B hpre e o /\ steps_ok B (hpre ++ [(e, o)]) evs os.
Proof.
  intros He. unfold steps_ok. rewrite (live_cons e evs He). cbn [combine]. split.
  - intros H. split.
    + specialize (H [] e o (combine (live evs) os) eq_refl). now rewrite app_nil_r in H.
    + intros h e0 o0 tl E. rewrite <- app_assoc. apply (H ((e, o) :: h) e0 o0 tl).
      cbn [app]. now rewrite E.
  - intros [H0 H] h e0 o0 tl E. destruct h as [|x h]; cbn [app] in E.
    + injection E as <- <- _. now rewrite app_nil_r.
    + injection E as <- E. specialize (H h e0 o0 tl E). now rewrite <- app_assoc in H.
Qed.

Lemma len_ok_cons e evs o os : e <> Close -> len_ok (e :: evs) (o :: os) <-> len_ok evs os.
Proof.
  intros He. unfold len_ok. rewrite (live_cons e evs He). cbn [length In].
  assert (Hin : e = Close \/ In Close evs <-> In Close evs) by tauto.
  rewrite Hin, <- Nat.succ_le_mono, Nat.succ_inj_wd. reflexivity.
Qed.

Lemma len_ok_nil_r e evs : e <> Close -> ~ len_ok (e :: evs) [].
Proof.
  intros He [H1 H2]. rewrite (live_cons e evs He) in H1. cbn [length] in *.
  assert (Hn : ~ In Close (e :: evs)) by (intros H; specialize (H1 H); lia).
  specialize (H2 Hn). discriminate.
Qed.

Lemma spec_cons B hpre e evs o os : e <> Close ->
  len_ok (e :: evs) (o :: os) /\ steps_ok B hpre (e :: evs) (o :: os) <->
  step_ok B hpre e o /\ len_ok evs os /\ steps_ok B (hpre ++ [(e, o)]) evs os.
Proof. intros He. rewrite len_ok_cons, steps_ok_cons by exact He. tauto. Qed.

(* each conjunct of [mon] at an event is its clause of [step_ok] *)
Lemma mon_spec_gen B : forall evs os hpre (wt : bool),
  (if wt then waiting hpre else ~ waiting hpre) ->
  (mon B evs os (arrived B hpre) (handed hpre) wt = true <-> len_ok evs os /\ steps_ok B hpre evs os).
Proof.
  induction evs as [|e evs IH]; intros os hpre wt Hw.
  { destruct os as [|o os]; cbn [mon].
    - split; [intros _|reflexivity]. split.
      + split; [intros []|reflexivity].
      + intros h e o tl E. destruct h; discriminate.
    - (* [] holds no Close, so len_ok would have the lengths equal *)
      split; [discriminate|]. intros [[_ H] _]. specialize (H (fun x => x)). discriminate. }
  destruct e as [it|[|b bs]|].
  4:{ (* close: nothing is required from here on *)
    cbn [mon]. split; [intros _|reflexivity]. split.
    - split; [intros _; cbn; lia|]. intros H. exfalso. apply H. now left.
    - intros h e o tl E. destruct h; discriminate. }
  (* the other events need an observation, and one of their own kind *)
  all: destruct os as [|o os]; cbn [mon];
    [split; [discriminate|]; intros [H _]; exfalso; revert H; apply len_ok_nil_r; discriminate|].
  all: rewrite spec_cons by discriminate.
  all: destruct o as [w|r reg p|w]; cbn [step_ok]; try (split; [discriminate|intros [[] _]]).
  - specialize (IH os (hpre ++ [(Arrive it, OArrive w)]) false).
    rewrite arrived_snoc, handed_snoc, app_nil_r, waiting_snoc in IH.
    apply andb_iff; [destruct wt; tauto|exact (IH id)].
  - specialize (IH os (hpre ++ [(Poll [], OPoll r reg p)]) wt).
    rewrite arrived_snoc, handed_snoc, !app_nil_r in IH.
    rewrite IH by (destruct wt; rewrite waiting_snoc; exact Hw). tauto.
  - destruct r as [slots| | |]; try (split; [discriminate|intros [[] _]]).
    + specialize (IH os (hpre ++ [(Poll (b :: bs), OPoll (Ready slots) reg p)]) false).
      rewrite arrived_snoc, handed_snoc, app_nil_r, waiting_snoc in IH.
      apply andb_iff; [|exact (IH id)]. rewrite <- andb_assoc. repeat apply andb_iff.
      * destruct slots; cbn; split; congruence.
      * apply forallb_slot_ok.
      * rewrite is_prefix_iff. split; intros [rest ->]; exists rest; [symmetry|]; apply app_assoc.
    + specialize (IH os (hpre ++ [(Poll (b :: bs), OPoll Pending reg p)]) true).
      rewrite arrived_snoc, handed_snoc, !app_nil_r, waiting_snoc in IH.
      repeat apply andb_iff; [reflexivity|apply list_eqb_iff, tdg_eqb_iff|exact (IH I)].
Qed.

Lemma mon_spec B evs os : mon B evs os [] [] false = true <-> spec B evs os.
Proof.
  apply (iff_trans (mon_spec_gen B evs os [] false not_waiting_nil)).
  unfold spec, len_ok. apply and_assoc.
Qed.

Lemma monitor_spec (i : input) (o : output) B :
  Forall (fun e => wf_ev e = true) i ->
  buf_sizes i <> [] -> Forall (eq B) (buf_sizes i) -> B <= U64_MAX ->
  (monitor i o = true <-> spec B i o).
Proof.
  intros Hwf Hne HB HU. unfold monitor.
  assert (E1 : forallb wf_ev i = true) by (apply forallb_forall; now apply Forall_forall).
  rewrite E1, (proj2 (uniform_iff i B) (conj Hne HB)). cbn [negb].
  destruct (U64_MAX <? B) eqn:E2; [lia|]. apply mon_spec.
Qed.

(* outside the quantifier the monitor accepts everything *)
Lemma monitor_outside (i : input) (o : output) :
  (forallb wf_ev i = false \/ uniform i = None) -> monitor i o = true.
Proof. unfold monitor. intros [->| ->]; [reflexivity|]. now destruct (negb (forallb wf_ev i)). Qed.

Definition ex_hist : list ev :=
  [Arrive (mkItem 1 (mkDg 0 (Some 4) [1;2;3;4;5;6;7;8;9])); Arrive (mkItem 2 (mkDg 0 None [7]));
   Arrive (mkItem 3 (mkDg 0 None [1;2;3;4])); Poll [3]; Poll [3;3]; Poll [3]].

Example ex_hist_ok : Forall (ev_ok 3) ex_hist.
Proof. repeat constructor. Qed.

(* (what unfixed iroh did here, num_segments without .max(1) and a break after a drop, is in
   notes/C17.md, with the witnesses in corpus/C17/witness.case)
   segment size 4 > buffer 3: the two full segments are dropped, the 1-byte tail and the
   next item are delivered, the 4-byte item is dropped, then Pending with the waker registered *)
Example ex_hist_run :
  model ex_hist =
  [OArrive false; OArrive false; OArrive false;
   OPoll (Ready [mkSlot 1 1 1 [9]]) false None;
   OPoll (Ready [mkSlot 2 1 1 [7]]) true None;
   OPoll Pending true None].
Proof. vm_compute. reflexivity. Qed.

Example ex_rebatch :
  model [Arrive (mkItem 4 (mkDg 1 (Some 2) [1;2;3;4;5;6;7])); Poll [5;5;5]] =
  [OArrive false;
   OPoll (Ready [mkSlot 4 4 2 [1;2;3;4]; mkSlot 4 3 2 [5;6;7]]) true None].
Proof. vm_compute. reflexivity. Qed.

(* non-vacuity: the model's run of ex_hist satisfies spec; the same run with the first poll
   answering Pending (a wedge: three datagrams queued, one of them fits) does not *)
Example ex_spec_holds : spec 3 ex_hist (model ex_hist).
Proof.
  apply monitor_spec; [repeat constructor|discriminate|repeat constructor|vm_compute; discriminate|].
  apply model_monitor.
Qed.

Example ex_spec_rejects_wedge :
  ~ spec 3 ex_hist [OArrive false; OArrive false; OArrive false; OPoll Pending true None;
                    OPoll Pending true None; OPoll Pending true None].
Proof.
  intros H. apply monitor_spec in H; [|repeat constructor|discriminate|repeat constructor|vm_compute; discriminate].
  vm_compute in H. discriminate.
Qed.
