(* C12 — auth_token returns exactly the token the documented rules select (Model/C12.v).
   Both of its loops (header values; the query's sequences) stop at the first element that
   decides: each gets one step equation, and a prefix that does not decide is walked past. *)
From V Require Import Lib.Base Lib.Lists Model.C12.
From V Require Import Lib.LiaBool.
Import C12.
Open Scope N_scope.

Lemma first_failure {A} (Q : A -> Prop) (dec : forall a, Q a \/ ~ Q a) l :
  Forall Q l \/ exists pre s post, l = pre ++ s :: post /\ Forall Q pre /\ ~ Q s.
Proof.
  induction l as [|a l [F|(pre & s & post & -> & F & N)]].
  - left. constructor.
  - destruct (dec a) as [Ha|Ha]; [left; now constructor|right; now exists [], a, l].
  - destruct (dec a) as [Ha|Ha]; [|right; now exists [], a, (pre ++ s :: post)].
    right. exists (a :: pre), s, post. auto.
Qed.

Lemma split_once_app sep a c : ~ In sep a -> split_once sep (a ++ sep :: c) = Some (a, c).
Proof.
  induction a as [|b a IH]; cbn [app split_once In]; intros H.
  - now rewrite N.eqb_refl.
  - destruct (N.eqb_spec b sep); [tauto|]. rewrite IH; tauto.
Qed.

Lemma split_once_view sep l :
  match split_once sep l with
  | Some (a, c) => l = a ++ sep :: c /\ ~ In sep a
  | None => ~ In sep l
  end.
Proof.
  induction l as [|b r IH]; cbn [split_once In]; [tauto|].
  destruct (N.eqb_spec b sep) as [->|Hne]; [auto|].
  destruct (split_once sep r) as [[a c]|].
  - destruct IH as [-> Hn]. split; [reflexivity|]. intros [H|H]; [congruence|auto].
  - intros [H|H]; [congruence|auto].
Qed.

Lemma split_once_some sep l a c :
  split_once sep l = Some (a, c) <-> l = a ++ sep :: c /\ ~ In sep a.
Proof.
  split; [|intros [-> H]; now apply split_once_app].
  intros E. pose proof (split_once_view sep l) as V. now rewrite E in V.
Qed.

Lemma split_once_none sep l : split_once sep l = None <-> ~ In sep l.
Proof.
  pose proof (split_once_view sep l) as V. destruct (split_once sep l) as [[a c]|]; split; auto; [discriminate|].
  destruct V as [-> _]. intros H. destruct H. apply in_elt.
Qed.

Lemma split2_spec sep s :
  (s = fst (split2 sep s) ++ sep :: snd (split2 sep s) /\ ~ In sep (fst (split2 sep s)))
  \/ (~ In sep s /\ split2 sep s = (s, [])).
Proof.
  unfold split2. pose proof (split_once_view sep s) as V.
  destruct (split_once sep s) as [[a c]|]; [left|right]; auto.
Qed.

Fixpoint join (sep : N) (ss : list bytes) : bytes :=
  match ss with
  | [] => []
  | [s] => s
  | s :: r => s ++ sep :: join sep r
  end.

Lemma split_on_nonnil sep l : split_on sep l <> [].
Proof.
  induction l as [|b r IH]; cbn [split_on]; [discriminate|].
  destruct (b =? sep); [discriminate|]. destruct (split_on sep r); [congruence|discriminate].
Qed.

Lemma split_on_spec sep l :
  join sep (split_on sep l) = l /\ Forall (fun s => ~ In sep s) (split_on sep l).
Proof.
  induction l as [|b r [IH1 IH2]]; cbn [split_on].
  - split; [reflexivity|]. constructor; [intros []|constructor].
  - pose proof (split_on_nonnil sep r) as Hnn.
    destruct (split_on sep r) as [|s ss]; [congruence|].
    destruct (N.eqb_spec b sep) as [->|Hne]; split.
    + change (join sep ([] :: s :: ss)) with (sep :: join sep (s :: ss)). now rewrite IH1.
    + constructor; [intros []|exact IH2].
    + cbn [join] in *. destruct ss; cbn [app]; now rewrite <- IH1.
    + inversion IH2; subst. constructor; [|assumption]. intros [H|H]; [congruence|auto].
Qed.

Definition is_text (v : bytes) : Prop := Forall (fun b => (32 <= b /\ b < 127) \/ b = 9) v.

Lemma visible_spec b : visible b = true <-> (32 <= b /\ b < 127) \/ b = 9.
Proof. unfold visible. lia. Qed.

Lemma is_text_iff v : forallb visible v = true <-> is_text v.
Proof. apply forallb_Forall_iff, visible_spec. Qed.

Lemma to_str_some v : is_text v -> to_str v = Some v.
Proof. intros H. apply is_text_iff in H. unfold to_str. now rewrite H. Qed.

Lemma to_str_none v : ~ is_text v -> to_str v = None.
Proof. intros H%(eq_false_iff _ _ (is_text_iff v)). unfold to_str. now rewrite H. Qed.

(* "<scheme> <token>": split at the FIRST space, scheme = Bearer up to ASCII case *)
Definition bearer_of (v tok : bytes) : Prop :=
  exists scheme, v = scheme ++ SP :: tok /\ ~ In SP scheme /\ map lower scheme = map lower BEARER.

Definition skipped (v : bytes) : Prop := is_text v /\ forall tok, ~ bearer_of v tok.

Lemma eq_ignore_case_spec a b : eq_ignore_case a b = true <-> map lower a = map lower b.
Proof. apply bytes_eqb_iff. Qed.

(* what the loop body computes from a textual value *)
Definition bearer_tok (v : bytes) : option bytes :=
  match split_once SP v with
  | Some (scheme, tok) => if eq_ignore_case scheme BEARER then Some tok else None
  | None => None
  end.

Lemma bearer_tok_spec v tok : bearer_tok v = Some tok <-> bearer_of v tok.
Proof.
  unfold bearer_tok, bearer_of. split.
  - destruct (split_once SP v) as [[scheme t]|] eqn:E; [|discriminate].
    destruct (eq_ignore_case scheme BEARER) eqn:C; [|discriminate]. intros [= <-].
    apply split_once_some in E as [-> Hn]. apply eq_ignore_case_spec in C. eauto.
  - intros (scheme & -> & Hn & C). rewrite split_once_app by exact Hn.
    apply eq_ignore_case_spec in C. now rewrite C.
Qed.

Lemma skipped_iff v : skipped v <-> forallb visible v = true /\ bearer_tok v = None.
Proof.
  unfold skipped. split; intros [T B]; (split; [now apply is_text_iff|]).
  - destruct (bearer_tok v) as [tok|] eqn:E; [|reflexivity]. now apply bearer_tok_spec, B in E.
  - intros tok H. apply bearer_tok_spec in H. congruence.
Qed.

Lemma skipped_dec v : skipped v \/ ~ skipped v.
Proof.
  rewrite skipped_iff. destruct (forallb visible v); [destruct (bearer_tok v)|]; intuition discriminate.
Qed.

Lemma scan_step v r :
  scan_headers (v :: r) =
  if forallb visible v
  then match bearer_tok v with Some tok => Some (Some tok) | None => scan_headers r end
  else Some None.
Proof.
  cbn [scan_headers]. unfold to_str, bearer_tok. destruct (forallb visible v); [|reflexivity].
  destruct (split_once SP v) as [[scheme tok]|]; [|reflexivity].
  destruct (eq_ignore_case scheme BEARER); reflexivity.
Qed.

Lemma scan_skipped pre rest : Forall skipped pre -> scan_headers (pre ++ rest) = scan_headers rest.
Proof.
  induction 1 as [|v pre Hv _ IH]; [reflexivity|]. apply skipped_iff in Hv as [T B].
  cbn [app]. now rewrite scan_step, T, B.
Qed.

Inductive header_outcome (hs : list bytes) : option (option bytes) -> Prop :=
| HBearer pre v post tok :
    hs = pre ++ v :: post -> Forall skipped pre -> is_text v -> bearer_of v tok ->
    header_outcome hs (Some (Some tok))           (* first Bearer header: its token *)
| HNonText pre v post :
    hs = pre ++ v :: post -> Forall skipped pre -> ~ is_text v ->
    header_outcome hs (Some None)                 (* non-text value before any Bearer: no token, search over *)
| HFallThrough :
    Forall skipped hs -> header_outcome hs None.  (* go on to the query *)

Lemma header_outcome_iff hs o : header_outcome hs o <-> o = scan_headers hs.
Proof.
  split.
  - intros [pre v post tok -> F T B|pre v post -> F T|F]; rewrite ?scan_skipped by exact F.
    + apply is_text_iff in T. apply bearer_tok_spec in B. now rewrite scan_step, T, B.
    + apply (eq_false_iff _ _ (is_text_iff v)) in T. now rewrite scan_step, T.
    + rewrite <- (app_nil_r hs). now rewrite scan_skipped.
  - intros ->. destruct (first_failure skipped skipped_dec hs) as [F|(pre & v & post & -> & F & N)].
    + rewrite <- (app_nil_r hs), scan_skipped by exact F. rewrite app_nil_r. now apply HFallThrough.
    + rewrite scan_skipped, scan_step by exact F. rewrite skipped_iff in N.
      destruct (forallb visible v) eqn:T; [destruct (bearer_tok v) as [tok|] eqn:B|].
      * apply (HBearer _ pre v post tok); auto; [now apply is_text_iff|now apply bearer_tok_spec].
      * tauto.
      * apply (HNonText _ pre v post); auto. now apply (eq_false_iff _ _ (is_text_iff v)).
Qed.

Definition nonempty (s : bytes) : bool := match s with [] => false | _ => true end.
Definition seqs (q : bytes) : list bytes := filter nonempty (split_on AMP q).
Definition name_of (s : bytes) : bytes := decode (fst (split2 EQS s)).
Definition value_of (s : bytes) : bytes := decode (snd (split2 EQS s)).

Inductive query_outcome (q : bytes) : option bytes -> Prop :=
| QFound pre s post :
    seqs q = pre ++ s :: post -> Forall (fun x => name_of x <> TOKEN) pre -> name_of s = TOKEN ->
    query_outcome q (Some (value_of s))           (* first `token` pair, form-decoded *)
| QNone :
    Forall (fun x => name_of x <> TOKEN) (seqs q) -> query_outcome q None.

(* an empty sequence has the name "", so `continue` and a failed comparison are the same step *)
Lemma find_step s r :
  find_token (s :: r) = if bytes_eqb (name_of s) TOKEN then Some (value_of s) else find_token r.
Proof.
  destruct s as [|b s]; [reflexivity|]. cbn [find_token]. unfold name_of, value_of.
  now destruct (split2 EQS (b :: s)).
Qed.

Lemma find_skipped pre rest :
  Forall (fun x => name_of x <> TOKEN) pre -> find_token (pre ++ rest) = find_token rest.
Proof.
  induction 1 as [|s pre Hs _ IH]; [reflexivity|]. apply bytes_eqb_neq in Hs.
  cbn [app]. now rewrite find_step, Hs.
Qed.

Lemma query_token_find q : query_token q = find_token (seqs q).
Proof.
  unfold query_token, seqs. destruct q as [|b q]; [reflexivity|].
  induction (split_on AMP (b :: q)) as [|s l IH]; [reflexivity|].
  destruct s; cbn [filter nonempty]; [exact IH|]. now rewrite !find_step, IH.
Qed.

Lemma query_outcome_iff q r : query_outcome q r <-> r = query_token q.
Proof.
  rewrite query_token_find. split.
  - intros [pre s post E F N|F].
    + now rewrite E, find_skipped, find_step, N, bytes_eqb_refl by exact F.
    + rewrite <- (app_nil_r (seqs q)). now rewrite find_skipped.
  - intros ->.
    destruct (first_failure (fun x => name_of x <> TOKEN)) with (l := seqs q)
      as [F|(pre & s & post & E & F & N)].
    + intros x. destruct (bytes_eqb (name_of x) TOKEN) eqn:X; [right|left; now apply bytes_eqb_neq].
      apply bytes_eqb_eq in X. tauto.
    + rewrite <- (app_nil_r (seqs q)), find_skipped by exact F. now apply QNone.
    + rewrite E, find_skipped, find_step by exact F.
      destruct (bytes_eqb (name_of s) TOKEN) eqn:X; [|now apply bytes_eqb_neq in X].
      apply bytes_eqb_eq in X. now apply (QFound _ pre s post).
Qed.

Definition qbytes (q : option bytes) : bytes := match q with Some b => b | None => [] end.

Definition spec (i : input) (r : option bytes) : Prop :=
  (header_outcome (fst i) (Some r))
  \/ (header_outcome (fst i) None /\ query_outcome (qbytes (snd i)) r).

Lemma auth_token_spec_lemma (i : input) (r : option bytes) :
  spec i r <-> r = auth_token (fst i) (snd i).
Proof.
  unfold spec, auth_token. fold (qbytes (snd i)). rewrite !header_outcome_iff, query_outcome_iff.
  destruct (scan_headers (fst i)) as [t|]; split.
  - intros [[= ->]|[[=] _]]. reflexivity.
  - intros ->. now left.
  - intros [[=]|[_ ->]]. reflexivity.
  - intros ->. now right.
Qed.

Lemma model_spec_lemma (i : input) : exists r, model i = Ok r /\ spec i r.
Proof. eexists. split; [reflexivity|]. now apply auth_token_spec_lemma. Qed.

Lemma monitor_spec (i : input) (o : output) :
  monitor i o = true <-> exists r, o = Ok r /\ spec i r.
Proof.
  unfold monitor. rewrite (res_eqb_iff _ (opt_eqb_iff _ bytes_eqb_iff)). split.
  - intros <-. apply model_spec_lemma.
  - intros (r & -> & Hs). apply auth_token_spec_lemma in Hs as ->. reflexivity.
Qed.

Lemma model_monitor (i : input) : monitor i (model i) = true.
Proof. apply monitor_spec, model_spec_lemma. Qed.

Lemma nontext_stops pre v post q :
  Forall skipped pre -> ~ is_text v -> auth_token (pre ++ v :: post) q = None.
Proof.
  intros Hp Hv. symmetry. apply (auth_token_spec_lemma (pre ++ v :: post, q) None).
  left. cbn [fst]. eapply HNonText; eauto.
Qed.

Lemma first_bearer_wins pre scheme tok post q :
  Forall skipped pre -> is_text (scheme ++ SP :: tok) -> ~ In SP scheme ->
  map lower scheme = map lower BEARER ->
  auth_token (pre ++ (scheme ++ SP :: tok) :: post) q = Some tok.
Proof.
  intros Hp Ht Hn Hl. symmetry.
  apply (auth_token_spec_lemma (pre ++ (scheme ++ SP :: tok) :: post, q) (Some tok)).
  left. cbn [fst]. eapply HBearer; eauto. exists scheme. auto.
Qed.

Lemma query_fallback hs q : Forall skipped hs -> auth_token hs q = query_token (qbytes q).
Proof.
  intros H. symmetry. apply (auth_token_spec_lemma (hs, q)). right. cbn [fst snd].
  split; [now apply HFallThrough|]. now apply query_outcome_iff.
Qed.

Lemma pct_plain l : ~ In PCT l -> pct l = l.
Proof.
  induction l as [|b r IH]; [reflexivity|]. cbn [pct In]. intros H.
  destruct (N.eqb_spec b PCT); [tauto|]. rewrite IH; tauto.
Qed.

Lemma pct_pct h lo r :
  pct (PCT :: h :: lo :: r) =
  match hexval h, hexval lo with
  | Some x, Some y => (x * 16 + y) :: pct r
  | _, _ => PCT :: pct (h :: lo :: r)
  end.
Proof. reflexivity. Qed.

Lemma pct_escape h lo x y r :
  hexval h = Some x -> hexval lo = Some y -> pct (PCT :: h :: lo :: r) = (x * 16 + y) :: pct r.
Proof. intros Hx Hy. now rewrite pct_pct, Hx, Hy. Qed.

Lemma pct_malformed_literal h lo r :
  hexval h = None \/ hexval lo = None -> pct (PCT :: h :: lo :: r) = PCT :: pct (h :: lo :: r).
Proof.
  intros H. rewrite pct_pct. destruct (hexval h), (hexval lo); destruct H; try discriminate; reflexivity.
Qed.

Lemma pct_trailing : pct [PCT] = [PCT] /\ forall h, pct [PCT; h] = PCT :: pct [h].
Proof. split; reflexivity. Qed.

Lemma range_spec lo hi c : reflect (lo <= c <= hi) ((lo <=? c) && (c <=? hi)).
Proof. apply iff_reflect. symmetry. apply andb_iff; apply N.leb_le. Qed.

Lemma hexval_spec c v : hexval c = Some v <->
  (48 <= c <= 57 /\ v = c - 48) \/ (97 <= c <= 102 /\ v = c - 87) \/ (65 <= c <= 70 /\ v = c - 55).
Proof.
  unfold hexval.
  destruct (range_spec 48 57 c); [|destruct (range_spec 97 102 c); [|destruct (range_spec 65 70 c)]].
  4: split; [discriminate|lia].
  all: split; [intros [= <-]; auto|intros H; f_equal; lia].
Qed.

Lemma lossy_f_ascii fuel : forall l, (length l < fuel)%nat -> Forall (fun b => b < 128) l -> lossy_f fuel l = l.
Proof.
  induction fuel as [|f IH]; intros l Hl Ha; [lia|].
  destruct Ha as [|b r Hb Hr]; [reflexivity|]. cbn [lossy_f length] in *.
  destruct (N.ltb_spec b 128); [|lia]. rewrite IH; [reflexivity|lia|assumption].
Qed.

Lemma lossy_ascii l : Forall (fun b => b < 128) l -> lossy l = l.
Proof. intros H. unfold lossy. apply lossy_f_ascii; [lia|assumption]. Qed.

Lemma replace_plus_plain l : ~ In PLUS l -> replace_plus l = l.
Proof.
  intros H. unfold replace_plus. rewrite <- (map_id l) at 2. apply map_ext_in. intros b Hb.
  destruct (N.eqb_spec b PLUS); congruence.
Qed.

Lemma decode_plain l : ~ In PLUS l -> ~ In PCT l -> Forall (fun b => b < 128) l -> decode l = l.
Proof.
  intros H1 H2 H3. unfold decode. rewrite (replace_plus_plain _ H1), (pct_plain _ H2). now apply lossy_ascii.
Qed.

Lemma head_ge_128 (b : N) (r t : bytes) : 128 <= b -> Forall (fun x => x < 128) t -> b :: r = t -> False.
Proof. intros Hb Ht <-. inversion Ht; subst. lia. Qed.

(* a non-ASCII byte is copied or replaced by U+FFFD: either way the output starts above 127 *)
Lemma lossy_f_nonascii f b r : 128 <= b -> 128 <= hd 0 (lossy_f (S f) (b :: r)).
Proof.
  intros Hb. cbn [lossy_f]. destruct (N.ltb_spec b 128); [lia|].
  repeat match goal with
  | |- context [if ?c then _ else _] => destruct c
  | |- context [match ?x with [] => _ | _ :: _ => _ end] => destruct x
  end; first [exact Hb|discriminate].
Qed.

Lemma lossy_f_ascii_inv fuel : forall l, (length l < fuel)%nat ->
  Forall (fun b => b < 128) (lossy_f fuel l) -> lossy_f fuel l = l.
Proof.
  induction fuel as [|f IH]; intros l Hl; [lia|].
  destruct l as [|b r]; [reflexivity|]. destruct (N.lt_ge_cases b 128) as [Hb|Hb].
  - cbn [lossy_f length] in *. apply N.ltb_lt in Hb. rewrite Hb. intros H. inversion H; subst.
    f_equal. apply IH; [lia|assumption].
  - intros H. pose proof (lossy_f_nonascii f b r Hb) as Hh.
    destruct (lossy_f (S f) (b :: r)) as [|h t]; [now destruct Hh|].
    destruct (head_ge_128 h t _ Hh H eq_refl).
Qed.

Lemma lossy_ascii_inv l t : lossy l = t -> Forall (fun b => b < 128) t -> l = t.
Proof.
  intros <- H. symmetry. apply lossy_f_ascii_inv; [lia|exact H].
Qed.

Lemma token_ascii : Forall (fun b => b < 128) TOKEN.
Proof. repeat constructor. Qed.

(* lossy decoding cannot create a match: a name matches iff its percent-decoded bytes are "token" *)
Lemma name_matches_raw n : decode n = TOKEN <-> pct (replace_plus n) = TOKEN.
Proof.
  unfold decode. split.
  - intros H. apply lossy_ascii_inv; [exact H|exact token_ascii].
  - intros ->. apply lossy_ascii. exact token_ascii.
Qed.

Example ex_bearer :
  auth_token [str_bytes "Basic abc"; str_bytes "bEARER  a b"; str_bytes "Bearer x"] (Some (str_bytes "token=q"))
  = Some (str_bytes " a b").
Proof. vm_compute. reflexivity. Qed.

Example ex_nontext_stops :
  auth_token [str_bytes "Basic abc"; [66; 128]; str_bytes "Bearer x"] (Some (str_bytes "token=q")) = None.
Proof. vm_compute. reflexivity. Qed.

Example ex_query :
  auth_token [str_bytes "Basic abc"] (Some (str_bytes "a=1&&tok%65n=a+b%2B%zz%4&token=2"))
  = Some (str_bytes "a b+%zz%4").
Proof. vm_compute. reflexivity. Qed.

Example ex_lossy :
  decode (str_bytes "%E2%82x%F0%9F%98%80%80%C3%A9") =
  [239; 191; 189; 120; 240; 159; 152; 128; 239; 191; 189; 195; 169].
Proof. vm_compute. reflexivity. Qed.

Example ex_skipped : skipped (str_bytes "Basic abc").
Proof. apply skipped_iff. split; reflexivity. Qed.
