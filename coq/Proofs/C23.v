(* C23 — lemmas about the model of prune_non_relay_paths.
   The ids in `must_prune` are the ids of a list of paths of the input ([removed]), and the input
   is a permutation of [kept l ++ removed l]; so with distinct ids the survivors are a permutation
   of [kept l] ([prune_perm]): the protected paths, the last maxp failed ones if every path failed,
   and the first [cut] of the closed paths sorted by close time.  Counted by kind ([class_len],
   [prune_len]) this gives the all-failed and the emptied case by arithmetic. *)
From Coq Require Import Permutation Sorted.
From V Require Import Lib.Base Lib.Lists Lib.Sorting Gen.Consts Model.C23.
From V Require Import Lib.LiaBool.
Import C23.
Open Scope N_scope.

(* the library's readings under the model's own names, which [rewrite] needs *)
Lemma mem_In x l : mem x l = true <-> In x l.
Proof. apply existsb_eqb_in. Qed.
Lemma mem_false x l : mem x l = false <-> ~ In x l.
Proof. apply existsb_eqb_notin. Qed.

Lemma nodupb_NoDup l : nodupb l = true <-> NoDup l.
Proof. exact (nodupb_iff l). Qed.

Lemma len_nil {A} : len (@nil A) = 0.
Proof. reflexivity. Qed.
Lemma len_app {A} (u v : list A) : len (u ++ v) = len u + len v.
Proof. exact (Lists.len_app u v). Qed.

Lemma NoDup_map_filter {A B} (f : A -> B) g l : NoDup (map f l) -> NoDup (map f (filter g l)).
Proof.
  induction l as [|x r IH]; cbn; [auto|]. intros H. inversion H as [|? ? Hn Hr]; subst.
  destruct (g x); cbn; [constructor|]; auto.
  intros Hin. apply Hn. apply in_map_iff in Hin as [q [E Hq]]. apply filter_In in Hq as [Hq _].
  rewrite <- E. now apply in_map.
Qed.

(* from a list with distinct keys, dropping the keys of [r] leaves the rest *)
Lemma filter_out_perm {A} (f : A -> N) l k r :
  NoDup (map f l) -> Permutation l (k ++ r) ->
  Permutation (filter (fun p => negb (mem (f p) (map f r))) l) k.
Proof.
  intros ND P. apply (Permutation_trans (Permutation_filter _ _ _ P)). rewrite filter_app.
  apply (Permutation_map f) in P. rewrite map_app in P.
  apply (Permutation_NoDup P), NoDup_app_iff in ND as (_ & _ & D).
  rewrite (filter_none _ r), app_nil_r, filter_all; [reflexivity| |].
  - apply forallb_forall. intros p Hp. apply negb_true_iff, mem_false. intros K.
    exact (D _ (in_map f _ _ Hp) K).
  - intros p Hp. apply negb_false_iff, mem_In. now apply in_map.
Qed.

Lemma flat_map_filter {A B} (F : A -> list B) (f g : A -> bool) (h : A -> B) l :
  (forall a, F a = if g a then [h a] else []) ->
  flat_map F (filter f l) = map h (filter (fun a => f a && g a) l).
Proof.
  intros HF. induction l as [|a l IH]; [reflexivity|]. cbn [filter].
  destruct (f a); cbn [andb flat_map]; [|exact IH]. rewrite HF, IH. now destruct (g a).
Qed.

Definition key (p : path) : N * N := (pid p, closed_at p).

Lemma failed_of_primary l : failed_of (primary l) = map pid (filter failed_nr l).
Proof.
  apply (flat_map_filter _ _ is_unusable). intros p. unfold is_unusable. now destruct (st p).
Qed.

Lemma inactive_of_primary l : inactive_of (primary l) = map key (filter inactive_nr l).
Proof.
  apply (flat_map_filter _ _ is_inactive). intros p. unfold is_inactive, key, closed_at.
  now destruct (st p).
Qed.

Lemma failed_inactive_excl p : failed_nr p = true -> inactive_nr p = true -> False.
Proof.
  unfold failed_nr, inactive_nr, is_unusable, is_inactive. destruct (relay p), (st p); discriminate.
Qed.

Lemma protected_negb p : protected p = negb (failed_nr p || inactive_nr p).
Proof.
  unfold protected, failed_nr, inactive_nr, is_unusable, is_inactive. now destruct (relay p), (st p).
Qed.

Lemma all_failed_primary l : all_failed l = true -> primary l = l.
Proof.
  intros H. apply filter_all. unfold all_failed in H. rewrite forallb_forall in *.
  intros p Hp. specialize (H p Hp). unfold failed_nr in H. now apply andb_prop in H as [H _].
Qed.

(* `failed.len() == paths.len()` tests whether every path failed *)
Lemma failed_len l : (len (filter failed_nr l) =? len l) = all_failed l.
Proof.
  destruct (all_failed l) eqn:AF.
  - rewrite filter_all by exact AF. apply N.eqb_refl.
  - apply N.eqb_neq. intros E%Nnat.Nat2N.inj%filter_length_all. unfold all_failed in AF. congruence.
Qed.

Lemma emptied_with_iff maxp maxi l :
  emptied_with maxp maxi l = true <->
  triggered_with maxp l = true /\ forallb (fun p => failed_nr p || inactive_nr p) l = true /\
  1 <= n_inactive l <= maxi.
Proof.
  unfold emptied_with. repeat apply andb_assoc_iff.
  apply andb_iff; [apply iff_refl|]. apply andb_iff; [apply iff_refl|].
  apply andb_iff; apply N.leb_le.
Qed.

(* every path is of exactly one of three kinds *)
Lemma class_perm l :
  Permutation l (filter protected l ++ filter failed_nr l ++ filter inactive_nr l).
Proof.
  induction l as [|p l IH]; [reflexivity|]. cbn [filter]. rewrite protected_negb.
  destruct (failed_nr p) eqn:F, (inactive_nr p) eqn:I; cbn [orb negb app].
  - destruct (failed_inactive_excl p F I).
  - now apply Permutation_cons_app.
  - rewrite app_assoc in *. now apply Permutation_cons_app.
  - now constructor.
Qed.

Lemma class_len l :
  len l = len (filter protected l) + len (filter failed_nr l) + n_inactive l.
Proof.
  unfold len at 1. rewrite (Permutation_length (class_perm l)), !app_length.
  unfold n_inactive, len. lia.
Qed.

Lemma no_protected l :
  forallb (fun p => failed_nr p || inactive_nr p) l = true <-> len (filter protected l) = 0.
Proof.
  split.
  - intros FI. rewrite filter_none; [reflexivity|]. rewrite forallb_forall in FI.
    intros p Hp. now rewrite protected_negb, (FI p Hp).
  - intros E. apply forallb_forall. intros p Hp. destruct (failed_nr p || inactive_nr p) eqn:C; [reflexivity|].
    assert (In p (filter protected l)) as H by (apply filter_In; now rewrite protected_negb, C).
    destruct (filter protected l); [destruct H|]. rewrite len_cons in E. lia.
Qed.

(* the survivors number none iff no path is protected and between 1 and maxi are closed
   (a protected paths, f failed, n closed, of L) *)
Lemma census_zero a f n L maxp maxi :
  1 <= maxp -> L = a + f + n ->
  (a + (if f =? L then maxp else 0) + (n - maxi) = 0 <-> a = 0 /\ 1 <= n <= maxi).
Proof. intros M C. destruct (N.eqb_spec f L); lia. Qed.

Definition prune_spec (maxp maxi : N) (l : list path) (ids : list N) : Prop :=
  (* the survivors are paths of the input, each once *)
  (forall x, In x ids -> In x (map pid l)) /\ NoDup ids /\
  (* open / unknown / relay paths are never removed *)
  (forall p, In p l -> protected p = true -> In (pid p) ids) /\
  (triggered_with maxp l = true ->
     (all_failed l = true -> len ids = maxp) /\
     (all_failed l = false -> forall p, In p l -> failed_nr p = true -> ~ In (pid p) ids) /\
     len (filter (fun p => mem (pid p) ids) (filter inactive_nr l)) = N.min (n_inactive l) maxi /\
     (forall a b, In a l -> In b l -> inactive_nr a = true -> inactive_nr b = true ->
        In (pid a) ids -> ~ In (pid b) ids -> closed_at b <= closed_at a)) /\
  (triggered_with maxp l = false -> forall p, In p l -> In (pid p) ids) /\
  (l <> [] -> ids <> []).

Lemma newest_forallb l ids :
  forallb (fun a => forallb (fun b =>
     implb (mem (pid a) ids && negb (mem (pid b) ids)) (closed_at b <=? closed_at a))
     (filter inactive_nr l)) (filter inactive_nr l) = true <->
  (forall a b, In a l -> In b l -> inactive_nr a = true -> inactive_nr b = true ->
     In (pid a) ids -> ~ In (pid b) ids -> closed_at b <= closed_at a).
Proof.
  eapply iff_trans.
  { apply forallb_filter_iff; intros a. apply forallb_filter_iff; intros b.
    apply implb_iff; [|apply N.leb_le]. eapply andb_iff; [apply mem_In|apply negb_iff, mem_In]. }
  split; intros H.
  - intros a b Ha Hb Ia Ib Ka Kb. exact (H a Ha Ia b Hb Ib (conj Ka Kb)).
  - intros a Ha Ia b Hb Ib [Ka Kb]. exact (H a b Ha Hb Ia Ib Ka Kb).
Qed.

Lemma monitor_spec maxp maxi l ids :
  NoDup (map pid l) ->
  (monitor_with maxp maxi l (Ok ids) = true <-> prune_spec maxp maxi l ids).
Proof.
  intros ND. unfold monitor_with, prune_spec.
  rewrite (proj2 (nodupb_NoDup _) ND). cbn [negb]. cbv zeta.
  repeat apply andb_assoc_iff.
  apply andb_iff; [apply forallb_iff; intros x; apply mem_In|].
  apply andb_iff; [apply nodupb_NoDup|].
  apply andb_iff; [apply forallb_iff; intros p; apply implb_iff; [apply iff_refl|apply mem_In]|].
  (* [ite_iff] reads the test on [triggered_with] as two implications, which [prune_spec] lists
     as two clauses of its own *)
  eapply iff_trans; [|apply and_assoc]. apply andb_iff; [apply ite_iff|].
  - repeat apply andb_assoc_iff. eapply iff_trans; [|apply and_assoc].
    apply andb_iff; [apply ite_iff|apply andb_iff].
    + apply N.eqb_eq.
    + apply forallb_iff; intros p. apply implb_iff; [apply iff_refl|apply negb_iff, mem_In].
    + apply N.eqb_eq.
    + apply newest_forallb.
  - apply forallb_iff; intros p. apply mem_In.
  - destruct l, ids; split; try congruence. intros H. destruct H; [discriminate|reflexivity].
Qed.

Section Prune.
Variables maxp maxi : N.

Notation prune' := (prune_with maxp maxi).
Notation must' := (must_prune_with maxp maxi).

Definition closed_sorted (l : list path) : list path :=
  sort (fun a b => closed_at b <=? closed_at a) (filter inactive_nr l).
Definition cut (l : list path) : nat := N.to_nat (n_inactive l - maxi).

Definition removed (l : list path) : list path :=
  (if all_failed l then firstn (N.to_nat (len l - maxp)) (filter failed_nr l) else filter failed_nr l)
  ++ skipn (cut l) (closed_sorted l).

Definition kept (l : list path) : list path :=
  filter protected l ++
  (if all_failed l then skipn (N.to_nat (len l - maxp)) (filter failed_nr l) else []) ++
  firstn (cut l) (closed_sorted l).

Lemma closed_sorted_len l : len (closed_sorted l) = n_inactive l.
Proof. unfold closed_sorted, n_inactive, len. now rewrite sort_length. Qed.

Lemma must_removed l : must' l = map pid (removed l).
Proof.
  unfold must_prune_with, removed, cut.
  rewrite failed_of_primary, inactive_of_primary, (sort_map key newer_first).
  change (sort _ (filter inactive_nr l)) with (closed_sorted l).
  rewrite !len_map, closed_sorted_len, failed_len, skipn_map, map_map, map_app.
  f_equal. destruct (all_failed l); [apply firstn_map|reflexivity].
Qed.

Lemma closed_sorted_in l p : In p (closed_sorted l) <-> In p l /\ inactive_nr p = true.
Proof. unfold closed_sorted. now rewrite sort_in, filter_In. Qed.

(* the two early returns of the code amount to one test *)
Lemma prune_eq l :
  prune' l = if triggered_with maxp l then filter (fun p => negb (mem (pid p) (must' l))) l else l.
Proof.
  unfold triggered_with, prune_with. rewrite N.leb_antisym.
  destruct (len l <? maxp) eqn:E1; [|now destruct (len (primary l) <? maxp)].
  replace (len (primary l) <? maxp) with true; [reflexivity|].
  unfold len, primary in *. pose proof (filter_length_le (fun p => negb (relay p)) l). lia.
Qed.

Lemma prune_unfold l :
  triggered_with maxp l = true ->
  prune' l = filter (fun p => negb (mem (pid p) (must' l))) l.
Proof. intros T. now rewrite prune_eq, T. Qed.

Lemma prune_noop l : triggered_with maxp l = false -> prune' l = l.
Proof. intros T. now rewrite prune_eq, T. Qed.

Lemma prune_incl l p : In p (prune' l) -> In p l.
Proof. rewrite prune_eq. destruct (triggered_with maxp l); [|auto]. rewrite filter_In. tauto. Qed.

(* `retain` tests the id alone *)
Lemma prune_id l p : In p l -> (In (pid p) (map pid (prune' l)) <-> In p (prune' l)).
Proof.
  intros Hp. split; [|apply in_map]. rewrite prune_eq. destruct (triggered_with maxp l); [|auto].
  intros (q & E & [_ G]%filter_In)%in_map_iff. apply filter_In. rewrite <- E. exact (conj Hp G).
Qed.

Lemma prune_NoDup l : NoDup (map pid l) -> NoDup (map pid (prune' l)).
Proof. rewrite prune_eq. destruct (triggered_with maxp l); [apply NoDup_map_filter|auto]. Qed.

Lemma kept_removed l : Permutation l (kept l ++ removed l).
Proof.
  unfold kept, removed. apply (Permutation_trans (class_perm l)). rewrite <- !app_assoc.
  apply Permutation_app_head.
  eapply Permutation_trans; [|apply Permutation_app_head, Permutation_app_swap_app].
  rewrite firstn_skipn, app_assoc.
  apply Permutation_app; [|apply Permutation_sym, sort_perm].
  destruct (all_failed l); [|now rewrite app_nil_l].
  eapply Permutation_trans; [|apply Permutation_app_comm]. now rewrite firstn_skipn.
Qed.

Theorem prune_perm l :
  NoDup (map pid l) -> triggered_with maxp l = true -> Permutation (prune' l) (kept l).
Proof.
  intros ND T. rewrite (prune_unfold l T), must_removed. apply filter_out_perm, kept_removed. exact ND.
Qed.

Lemma kept_closed_len l : len (firstn (cut l) (closed_sorted l)) = n_inactive l - maxi.
Proof. rewrite len_firstn, closed_sorted_len. unfold cut. lia. Qed.

(* who survives, counted by kind *)
Lemma prune_len l :
  NoDup (map pid l) -> triggered_with maxp l = true ->
  len (prune' l) =
  len (filter protected l) + (if all_failed l then maxp else 0) + (n_inactive l - maxi).
Proof.
  intros ND T. unfold len at 1. rewrite (Permutation_length (prune_perm l ND T)).
  fold (len (kept l)). unfold kept. rewrite !len_app, kept_closed_len, N.add_assoc.
  destruct (all_failed l) eqn:AF; [|reflexivity]. rewrite len_skipn, (filter_all _ _ AF).
  unfold triggered_with in T. rewrite (all_failed_primary l AF) in T. lia.
Qed.

Lemma kept_closed l :
  NoDup (map pid l) -> triggered_with maxp l = true ->
  Permutation (filter inactive_nr (prune' l)) (firstn (cut l) (closed_sorted l)).
Proof.
  intros ND T. apply (Permutation_trans (Permutation_filter _ _ _ (prune_perm l ND T))). unfold kept.
  rewrite !filter_app, 2!filter_none, filter_all; [reflexivity| | |].
  - apply forallb_forall. intros p Hp%In_firstn_incl%closed_sorted_in. apply Hp.
  - intros p Hp. destruct (inactive_nr p) eqn:I; [|reflexivity].
    destruct (all_failed l); [|destruct Hp]. apply In_skipn_incl', filter_In in Hp as [_ F].
    destruct (failed_inactive_excl p F I).
  - intros p [_ Pp]%filter_In. rewrite protected_negb in Pp.
    apply negb_true_iff, orb_false_elim in Pp. apply Pp.
Qed.

Lemma prune_keeps_protected l p :
  NoDup (map pid l) -> In p l -> protected p = true -> In p (prune' l).
Proof.
  intros ND Hp Pr. destruct (triggered_with maxp l) eqn:T; [|now rewrite (prune_noop l T)].
  apply (Permutation_in _ (Permutation_sym (prune_perm l ND T))), in_or_app. left.
  apply filter_In. exact (conj Hp Pr).
Qed.

Lemma prune_removes_failed l p :
  triggered_with maxp l = true -> all_failed l = false ->
  In p (prune' l) -> failed_nr p = true -> False.
Proof.
  intros T AF. rewrite (prune_unfold l T), must_removed. intros [Hp H]%filter_In F.
  apply negb_true_iff, mem_false in H. apply H, in_map. unfold removed. rewrite AF.
  apply in_or_app. left. apply filter_In. exact (conj Hp F).
Qed.

Lemma prune_all_failed_len l :
  NoDup (map pid l) -> triggered_with maxp l = true -> all_failed l = true ->
  len (prune' l) = maxp.
Proof.
  intros ND T AF. rewrite (prune_len l ND T), AF.
  pose proof (class_len l). pose proof (failed_len l) as F. rewrite AF in F. lia.
Qed.

(* what the code does: all but maxi of the closed paths survive (none, if there are fewer) *)
Lemma prune_inactive_count l :
  NoDup (map pid l) -> triggered_with maxp l = true ->
  len (filter inactive_nr (prune' l)) = n_inactive l - maxi.
Proof.
  intros ND T. unfold len at 1. rewrite (Permutation_length (kept_closed l ND T)).
  apply kept_closed_len.
Qed.

Lemma prune_inactive_newest l a b :
  NoDup (map pid l) -> triggered_with maxp l = true ->
  In b l -> inactive_nr a = true -> inactive_nr b = true ->
  In a (prune' l) -> ~ In b (prune' l) -> closed_at b <= closed_at a.
Proof.
  intros ND T Hb Ia Ib Ka Kb. pose proof (kept_closed l ND T) as P.
  apply (sorted_firstn_skipn (fun a b => closed_at b <= closed_at a) (cut l) (closed_sorted l));
    [apply sort_desc_sorted| |].
  - apply (Permutation_in _ P), filter_In. exact (conj Ka Ia).
  - assert (In b (closed_sorted l)) as HS by (apply closed_sorted_in; exact (conj Hb Ib)).
    rewrite <- (firstn_skipn (cut l)) in HS. apply in_app_or in HS as [HS|HS]; [|exact HS].
    apply (Permutation_in _ (Permutation_sym P)), filter_In in HS. destruct (Kb (proj1 HS)).
Qed.

Lemma prune_empties_iff l :
  1 <= maxp -> NoDup (map pid l) -> (prune' l = [] <-> l = [] \/ emptied_with maxp maxi l = true).
Proof.
  intros M1 ND. destruct (triggered_with maxp l) eqn:T.
  2:{ rewrite (prune_noop l T). unfold emptied_with. rewrite T. split; [auto|].
      intros [E|E]; [exact E|discriminate]. }
  pose proof (census_zero _ _ _ _ maxp maxi M1 (class_len l)) as [Z1 Z2].
  rewrite (failed_len l), <- (prune_len l ND T) in Z1, Z2. split.
  - intros E. right. apply emptied_with_iff. rewrite E in Z1. destruct (Z1 eq_refl) as [P0 N].
    split; [exact T|]. split; [apply no_protected, P0|exact N].
  - intros [->|(_ & FI%no_protected & N)%emptied_with_iff].
    + unfold triggered_with in T. cbn in T. lia.
    + specialize (Z2 (conj FI N)). destruct (prune' l); [reflexivity|]. rewrite len_cons in Z2. lia.
Qed.

Definition out_ids (l : list path) : list N := sort_ids (map pid (prune' l)).

Lemma out_ids_in x l : In x (out_ids l) <-> In x (map pid (prune' l)).
Proof. unfold out_ids, sort_ids. apply sort_in. Qed.

Lemma out_ids_kept l p : In p l -> (In (pid p) (out_ids l) <-> In p (prune' l)).
Proof. rewrite out_ids_in. apply prune_id. Qed.

Lemma out_ids_len l : len (out_ids l) = len (prune' l).
Proof. unfold out_ids, sort_ids, len. now rewrite sort_length, map_length. Qed.

Lemma out_ids_NoDup l : NoDup (map pid l) -> NoDup (out_ids l).
Proof.
  intros ND. unfold out_ids, sort_ids. eapply Permutation_NoDup.
  - apply Permutation_sym, sort_perm.
  - now apply prune_NoDup.
Qed.

Lemma out_ids_inactive l :
  triggered_with maxp l = true ->
  filter (fun p => mem (pid p) (out_ids l)) (filter inactive_nr l) = filter inactive_nr (prune' l).
Proof.
  intros T. rewrite (prune_unfold l T), filter_swap. f_equal.
  apply filter_ext_in. intros p Hp. apply eq_true_iff_eq.
  rewrite mem_In, (out_ids_kept l p Hp), (prune_unfold l T), filter_In. tauto.
Qed.

(* outside the known classes what the code keeps of the closed paths is what the property asks *)
Lemma known_zero l :
  NoDup (map pid l) -> triggered_with maxp l = true -> known_with maxp maxi l = 0 ->
  n_inactive l - maxi = N.min (n_inactive l) maxi.
Proof.
  intros ND T. unfold known_with. rewrite (proj2 (nodupb_NoDup _) ND), T. cbn [andb].
  destruct (n_inactive l =? 0) eqn:E0; [lia|].
  destruct (n_inactive l =? 2 * maxi) eqn:E2; [lia|].
  cbn. destruct (emptied_with maxp maxi l); discriminate.
Qed.

Lemma emptied_known l :
  NoDup (map pid l) -> (emptied_with maxp maxi l = true <-> known_with maxp maxi l = 2).
Proof.
  intros ND. unfold known_with. rewrite (proj2 (nodupb_NoDup _) ND). cbn [andb].
  destruct (emptied_with maxp maxi l) eqn:E.
  - apply emptied_with_iff in E as (T & FI & E3 & E4). rewrite T. cbn [andb].
    replace (n_inactive l =? 0) with false by lia.
    replace (n_inactive l =? 2 * maxi) with false by lia. cbn. tauto.
  - split; [discriminate|].
    destruct (triggered_with maxp l && negb (n_inactive l =? 0) && negb (n_inactive l =? 2 * maxi));
      discriminate.
Qed.

Lemma prune_never_empties l :
  1 <= maxp -> NoDup (map pid l) -> known_with maxp maxi l <> 2 -> l <> [] -> prune' l <> [].
Proof.
  intros M1 ND K NE E. apply (prune_empties_iff l M1 ND) in E as [E|E]; [contradiction|].
  apply K. now apply emptied_known.
Qed.

(* outside the known classes the code's count of surviving closed paths is the
   property's, and the set is not emptied *)
Lemma model_spec l :
  1 <= maxp -> NoDup (map pid l) -> known_with maxp maxi l = 0 -> prune_spec maxp maxi l (out_ids l).
Proof.
  intros M1 ND K.
  split; [|split; [|split; [|split; [|split]]]].
  - intros x Hx. apply out_ids_in, in_map_iff in Hx as [q [<- Hq]]. apply in_map.
    now apply prune_incl in Hq.
  - now apply out_ids_NoDup.
  - intros p Hp Pp. apply out_ids_kept; auto. now apply prune_keeps_protected.
  - intros T. repeat split.
    + intros AF. rewrite out_ids_len. now apply prune_all_failed_len.
    + intros AF p Hp Fp Hin. apply out_ids_kept in Hin; auto. eapply prune_removes_failed; eauto.
    + rewrite out_ids_inactive, prune_inactive_count by assumption. now apply known_zero.
    + intros a b Ha Hb Ia Ib Ka Kb. apply (prune_inactive_newest l a b); auto.
      * now apply out_ids_kept.
      * intros Q. apply Kb. now apply out_ids_kept.
  - intros T p Hp. apply out_ids_kept; auto. now rewrite (prune_noop l T).
  - intros NE E. apply (prune_never_empties l M1 ND); [congruence|exact NE|].
    pose proof (out_ids_len l) as L. rewrite E in L.
    destruct (prune' l); [reflexivity|]. rewrite len_cons in L. cbn in L. lia.
Qed.

Lemma model_monitor_with l :
  1 <= maxp -> known_with maxp maxi l = 0 ->
  monitor_with maxp maxi l (Ok (out_ids l)) = true.
Proof.
  intros M1 K. destruct (nodupb (map pid l)) eqn:NDb; [|unfold monitor_with; now rewrite NDb].
  apply nodupb_NoDup in NDb. apply monitor_spec; auto. now apply model_spec.
Qed.

End Prune.

Lemma MAXP_pos : 1 <= MAXP.
Proof. vm_compute. discriminate. Qed.

Lemma model_monitor l : known l = 0 -> monitor l (model l) = true.
Proof. exact (model_monitor_with MAXP MAXI l MAXP_pos). Qed.

Definition emptied := emptied_with MAXP MAXI.

Lemma protected_iff p :
  protected p = true <-> (relay p = true \/ st p = Open \/ st p = Unknown).
Proof.
  unfold protected. apply orb_iff; [apply iff_refl|].
  destruct (st p); split; try discriminate; auto; intros [H|H]; discriminate H.
Qed.

(* [t_*] are what Props/C23.v states; most are the lemmas above at MAXP and MAXI *)
Lemma t_keeps_protected l p :
  NoDup (map pid l) -> In p l -> (relay p = true \/ st p = Open \/ st p = Unknown) -> In p (prune l).
Proof. intros ND Hp H. apply prune_keeps_protected; auto. now apply protected_iff. Qed.

Lemma t_only_removes l p : In p (prune l) -> In p l.
Proof. apply prune_incl. Qed.

Lemma t_removes_failed l p :
  triggered l = true -> all_failed l = false -> In p (prune l) -> relay p = false -> st p <> Unusable.
Proof.
  intros T AF Hp R S. apply (prune_removes_failed MAXP MAXI l p T AF Hp).
  unfold failed_nr, is_unusable. now rewrite R, S.
Qed.

Lemma all_failed_iff l :
  all_failed l = true <-> (forall p, In p l -> relay p = false /\ st p = Unusable).
Proof.
  unfold all_failed. apply forallb_iff; intros p. unfold failed_nr, is_unusable.
  apply andb_iff; [apply negb_true_iff|]. destruct (st p); split; congruence.
Qed.

Lemma t_all_failed l :
  NoDup (map pid l) -> (forall p, In p l -> relay p = false /\ st p = Unusable) -> MAXP <= len l ->
  len (prune l) = MAXP.
Proof.
  intros ND AF L. apply all_failed_iff in AF. apply prune_all_failed_len; auto.
  unfold triggered_with. rewrite (all_failed_primary l AF). lia.
Qed.

Lemma t_noop l : len (primary l) < MAXP -> prune l = l.
Proof. intros H. apply prune_noop. unfold triggered_with. lia. Qed.

(* the second clause of the two theorems on closed paths, which Props/C23.v spells out *)
Definition newest_kept (l : list path) : Prop :=
  forall a b, In a l -> In b l -> inactive_nr a = true -> inactive_nr b = true ->
    In a (prune l) -> ~ In b (prune l) -> closed_at b <= closed_at a.

Lemma t_inactive_actual l :
  NoDup (map pid l) -> triggered l = true ->
  len (filter inactive_nr (prune l)) = n_inactive l - MAXI /\ newest_kept l.
Proof.
  intros ND T. split; [now apply prune_inactive_count|].
  intros a b _. now apply prune_inactive_newest.
Qed.

Lemma t_inactive_newest_10 l :
  NoDup (map pid l) -> triggered l = true -> known l = 0 ->
  len (filter inactive_nr (prune l)) = N.min (n_inactive l) MAXI /\ newest_kept l.
Proof.
  intros ND T K. destruct (t_inactive_actual l ND T) as [C N]. split; [|exact N].
  rewrite C. exact (known_zero MAXP MAXI l ND T K).
Qed.

Lemma t_empties_iff l :
  NoDup (map pid l) -> (prune l = [] <-> l = [] \/ emptied l = true).
Proof. exact (prune_empties_iff MAXP MAXI l MAXP_pos). Qed.

Lemma t_never_empties l :
  NoDup (map pid l) -> known l <> 2 -> l <> [] -> prune l <> [].
Proof. exact (prune_never_empties MAXP MAXI l MAXP_pos). Qed.

Lemma t_monitor_spec l ids :
  NoDup (map pid l) -> (monitor l (Ok ids) = true <-> prune_spec MAXP MAXI l ids).
Proof. apply monitor_spec. Qed.

(* the sort used for `sort_by_key(Reverse(t))` *)
Lemma t_sort_spec (l : list (N * N)) :
  Permutation (sort newer_first l) l /\
  StronglySorted (fun a b => snd b <= snd a) (sort newer_first l) /\
  (forall t, filter (fun e => snd e =? t) (sort newer_first l) = filter (fun e => snd e =? t) l).
Proof.
  split; [apply sort_perm|]. split; [apply (sort_desc_sorted snd)|].
  intros t. apply sort_stable. intros x y Hx Hy. unfold newer_first. lia.
Qed.

Definition mk_range (n : nat) (base : N) (f : N -> status) : list path :=
  map (fun i => mkPath (base + N.of_nat i) false (f (N.of_nat i))) (seq 0 n).

(* class 2: MAXP - MAXI failed + MAXI closed paths: pruned to empty *)
Definition witness_empty : list path :=
  mk_range (N.to_nat (MAXP - MAXI)) 0 (fun _ => Unusable) ++
  mk_range (N.to_nat MAXI) 100 (fun i => Inactive (1000 * i)).

(* class 1: the unit test test_prune_mixed_must_and_can_prune: 15 unknown, 5 failed, 15 closed *)
Definition witness_mixed : list path :=
  mk_range 15 0 (fun _ => Unknown) ++ mk_range 5 15 (fun _ => Unusable) ++
  mk_range 15 20 (fun i => Inactive (1000 * i)).

Example witness_empty_known : known witness_empty = 2.
Proof. vm_compute. reflexivity. Qed.
Example witness_empty_out : prune witness_empty = [].
Proof. vm_compute. reflexivity. Qed.
Example witness_mixed_known : known witness_mixed = 1.
Proof. vm_compute. reflexivity. Qed.
(* 5 of 15 closed paths survive instead of 10 (20 paths in total, as the unit test expects) *)
Example witness_mixed_out :
  len (prune witness_mixed) = 20 /\ len (filter inactive_nr (prune witness_mixed)) = 5.
Proof.
  (* named, the pruned list is evaluated once for both readings: coqchk re-runs the evaluation
     without the VM, and every occurrence of a closed term on its own *)
  set (p := prune witness_mixed). vm_compute. auto.
Qed.

Lemma t_known_1_violates : exists l, known l = 1 /\ monitor l (model l) = false.
Proof. exists witness_mixed. vm_compute. auto. Qed.
Lemma t_known_2_violates : exists l, known l = 2 /\ monitor l (model l) = false.
Proof. exists witness_empty. vm_compute. auto. Qed.

Lemma t_newest_10_refuted :
  exists l, NoDup (map pid l) /\ triggered l = true /\
    len (filter inactive_nr (prune l)) <> N.min (n_inactive l) MAXI.
Proof.
  exists witness_mixed. split; [apply nodupb_NoDup; vm_compute; reflexivity|].
  split; vm_compute; [reflexivity|discriminate].
Qed.

Lemma t_never_empties_refuted : exists l, NoDup (map pid l) /\ l <> [] /\ prune l = [].
Proof.
  exists witness_empty. split; [apply nodupb_NoDup; vm_compute; reflexivity|].
  split; [vm_compute; discriminate|vm_compute; reflexivity].
Qed.

(* non-vacuity: the hypotheses of the positive theorems are satisfiable *)
Definition ex_twenty : list path :=    (* test_prune_keeps_most_recent_inactive: 15 unknown + 20 closed *)
  mk_range 15 0 (fun _ => Unknown) ++ mk_range 20 15 (fun i => Inactive (1000 * i)).
Example ex_twenty_ok :
  known ex_twenty = 0 /\ triggered ex_twenty = true /\ nodupb (map pid ex_twenty) = true /\
  map pid (filter inactive_nr (prune ex_twenty)) = [25;26;27;28;29;30;31;32;33;34].
Proof. vm_compute. auto. Qed.
Definition ex_all_failed : list path := mk_range 40 0 (fun _ => Unusable).
Example ex_all_failed_ok :
  all_failed ex_all_failed = true /\ known ex_all_failed = 0 /\ len (prune ex_all_failed) = 30.
Proof. vm_compute. auto. Qed.
