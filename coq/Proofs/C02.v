(* C02 — key.rs / endpoint_addr.rs (Model/C02.v): the encodings round-trip, except EndpointAddr
   with a V6 scope id or flow info (ea_v6_refuted); no parser panics; what a parser accepts is what
   the printer writes; the monitor holds of the model's own output on inputs with known = 0. *)
From V Require Import Lib.Base Lib.MachineInt Lib.BaseN Lib.Hex Lib.Leb128 Lib.Lists Model.C02.
From Coq Require Import ZifyNat PeanoNat Sorting.Sorted.
From V Require Import Lib.LiaBool.
(* Model/C12.v models str::split_once by the same fixpoint as split_once here: the lemmas of
   Proofs/C12.v about it apply by conversion *)
From V Require Proofs.C12.
Import C02.
Open Scope N_scope.

Lemma enc_decode_len_small c n : N.of_nat n <= MAXLEN -> enc_decode_len c n = decode_len c n.
Proof. intros H. unfold enc_decode_len. destruct (N.ltb_spec MAXLEN (N.of_nat n)); [lia|reflexivity]. Qed.

(* the length is a variable so that, where it is known, the premise is decided by computation
   (hex_len_64, b32_len_52) *)
Lemma enc_decode_mut_ok c s n m : length s = n -> enc_decode_len c n = Ok m ->
  enc_decode_mut c s m = decode c s.
Proof. intros <- H. unfold enc_decode_mut. rewrite H, Nat.eqb_refl. reflexivity. Qed.

(* up to MAXLEN symbols the assertions of data-encoding cannot fail: its entry points are the
   codec of Lib.BaseN *)
Lemma enc_decode_small c s : len s <= MAXLEN -> enc_decode c s = decode c s.
Proof.
  intros H. unfold enc_decode, bind. rewrite enc_decode_len_small by exact H.
  destruct (decode_len c (length s)) as [m| |] eqn:E.
  - apply (enc_decode_mut_ok _ _ _ _ eq_refl). now rewrite enc_decode_len_small.
  - unfold decode. now rewrite E.
  - now apply decode_len_total in E.
Qed.

Lemma enc_decode_total c s : len s <= MAXLEN -> enc_decode c s <> Panic.
Proof. intros H. rewrite enc_decode_small by exact H. apply decode_total. Qed.

Lemma encode_len_4_32 : encode_len 4 32 = 64%nat. Proof. reflexivity. Qed.
Lemma encode_len_5_32 : encode_len 5 32 = 52%nat. Proof. reflexivity. Qed.

Lemma hex_len_64 : enc_decode_len HEXLOWER 64 = Ok 32%nat. Proof. reflexivity. Qed.
Lemma b32_len_52 : enc_decode_len BASE32_NOPAD 52 = Ok 32%nat. Proof. reflexivity. Qed.

(* the length check after each decode_mut is a [sat_bind] whose error code is replaced *)
Lemma decode_base32_hex_sat s :
  sat (MAXLEN < len s)
    (fun b => length b = 32%nat /\
       ((length s = 64%nat /\ decode HEXLOWER s = Ok b) \/
        (length s = 52%nat /\ decode BASE32_NOPAD (ascii_upper s) = Ok b)))
    (decode_base32_hex s).
Proof.
  unfold decode_base32_hex. cbv zeta.
  destruct (Nat.eqb_spec (length s) 64) as [E|E].
  - rewrite (enc_decode_mut_ok HEXLOWER s 64 32 E hex_len_64).
    apply sat_bind with (P := fun b => decode HEXLOWER s = Ok b).
    + apply sat_intro; [intros D; now apply decode_total in D|auto].
    + intros b D. destruct (Nat.eqb_spec (length b) 32); cbn [sat]; auto.
  - destruct (enc_decode_len _ _) as [m| |] eqn:M; [|exact I|].
    + destruct (Nat.eqb_spec m 32) as [->|]; [|exact I].
      rewrite (enc_decode_mut_ok _ _ _ _ eq_refl M).
      apply sat_bind with (P := fun b => decode BASE32_NOPAD (ascii_upper s) = Ok b).
      * apply sat_intro; [intros D; now apply decode_total in D|auto].
      * intros b D. destruct (Nat.eqb_spec (length b) 32) as [L|]; cbn [sat]; [|exact I].
        split; [exact L|right]. split; [|exact D].
        apply (decode_length _ BASE32_NOPAD_ok) in D as (D & _).
        rewrite ascii_upper_length, L in D. change (bitw BASE32_NOPAD) with 5%nat in D. lia.
    + apply N.lt_nge. intros H. rewrite ascii_upper_length, enc_decode_len_small in M by exact H.
      now apply decode_len_total in M.
Qed.

Lemma decode_base32_hex_ok s b : decode_base32_hex s = Ok b <->
  length b = 32%nat /\
  ((length s = 64%nat /\ decode HEXLOWER s = Ok b) \/
   (length s = 52%nat /\ decode BASE32_NOPAD (ascii_upper s) = Ok b)).
Proof.
  split; [apply (sat_ok _ _ _ _ (decode_base32_hex_sat s))|].
  intros (L & [(S & D)|(S & D)]); unfold decode_base32_hex; cbv zeta.
  - rewrite S. cbn [Nat.eqb]. rewrite (enc_decode_mut_ok HEXLOWER s 64 32 S hex_len_64), D, L. reflexivity.
  - pose proof (ascii_upper_length s) as U. rewrite S in U. rewrite S, U, b32_len_52. cbn [Nat.eqb].
    rewrite (enc_decode_mut_ok BASE32_NOPAD _ 52 32 U b32_len_52), D, L. reflexivity.
Qed.

Lemma decode_base32_hex_total s : len s <= MAXLEN -> decode_base32_hex s <> Panic.
Proof. intros H. apply (sat_no_panic _ _ _ (decode_base32_hex_sat s)). lia. Qed.

Lemma decode_base32_hex_hex k : length k = 32%nat -> bytes_ok k = true ->
  decode_base32_hex (encode HEXLOWER k) = Ok k.
Proof.
  intros L B. apply decode_base32_hex_ok. split; [exact L|left]. split.
  - rewrite (encode_length _ HEXLOWER_ok), L. exact encode_len_4_32.
  - exact (decode_encode _ HEXLOWER_ok k B).
Qed.

Lemma decode_base32_hex_b32 s k : length k = 32%nat -> bytes_ok k = true ->
  ascii_upper s = encode BASE32_NOPAD k -> decode_base32_hex s = Ok k.
Proof.
  intros L B U. apply decode_base32_hex_ok. split; [exact L|right]. rewrite U. split.
  - rewrite <- (ascii_upper_length s), U, (encode_length _ BASE32_NOPAD_ok), L. exact encode_len_5_32.
  - exact (decode_encode _ BASE32_NOPAD_ok k B).
Qed.

Section Keys.
Variable is_point : bytes -> bool.

Lemma pk_from_bytes_ok b k : pk_from_bytes is_point b = Ok k -> k = b /\ is_point k = true.
Proof. unfold pk_from_bytes. destruct (is_point b) eqn:E; [|discriminate]. intros [= <-]. auto. Qed.

Lemma pk_try_from_slice_ok b k : pk_try_from_slice is_point b = Ok k ->
  k = b /\ is_point k = true /\ length k = 32%nat.
Proof.
  unfold pk_try_from_slice. destruct (length b =? 32)%nat eqn:E; [|discriminate].
  intros H. apply pk_from_bytes_ok in H as (-> & P). apply Nat.eqb_eq in E. auto.
Qed.

Lemma pk_from_str_ok s k : pk_from_str is_point s = Ok k -> is_point k = true /\ length k = 32%nat.
Proof.
  unfold pk_from_str, bind. destruct (decode_base32_hex s) as [b| |] eqn:D; try discriminate.
  intros H. apply pk_from_bytes_ok in H as (-> & P). apply decode_base32_hex_ok in D as (L & _). auto.
Qed.

Lemma pk_from_z32_ok s k : pk_from_z32 is_point s = Ok k -> is_point k = true /\ length k = 32%nat.
Proof.
  unfold pk_from_z32. destruct (enc_decode Z_BASE_32 s) as [b| |]; try discriminate.
  intros H. apply pk_try_from_slice_ok in H as (_ & H). exact H.
Qed.

Lemma pk_from_bytes_total b : pk_from_bytes is_point b <> Panic.
Proof. unfold pk_from_bytes. destruct (is_point b); discriminate. Qed.

Lemma pk_from_str_total s : len s <= MAXLEN -> pk_from_str is_point s <> Panic.
Proof.
  intros H. eapply sat_total, sat_bind; [apply total_sat; now apply decode_base32_hex_total|].
  intros b _. apply total_sat, pk_from_bytes_total.
Qed.

Lemma pk_try_from_slice_total b : pk_try_from_slice is_point b <> Panic.
Proof.
  unfold pk_try_from_slice. destruct (length b =? 32)%nat; [apply pk_from_bytes_total|discriminate].
Qed.

Lemma pk_from_z32_total s : len s <= MAXLEN -> pk_from_z32 is_point s <> Panic.
Proof.
  intros H. unfold pk_from_z32. pose proof (enc_decode_total Z_BASE_32 s H) as T.
  destruct (enc_decode Z_BASE_32 s); [apply pk_try_from_slice_total|discriminate|congruence].
Qed.

(* a decoder that never panics has its statement at every Q, not at False: [sat_bind] wants
   the Q of the decoder it is a step of (ea_dec_sat, where Q is what a panic of url_parse implies) *)
Lemma pk_postcard_dec_sat (Q : Prop) l :
  sat Q (fun p => fst p = firstn 32 l /\ is_point (fst p) = true /\ length (fst p) = 32%nat)
    (pk_postcard_dec is_point l).
Proof.
  unfold pk_postcard_dec. destruct (length l <? 32)%nat; [exact I|].
  eapply sat_bind; [|intros k H; exact H].
  apply sat_intro; [intros E; now apply pk_try_from_slice_total in E|]. apply pk_try_from_slice_ok.
Qed.

Lemma pk_postcard_dec_ok l k r : pk_postcard_dec is_point l = Ok (k, r) ->
  is_point k = true /\ length k = 32%nat.
Proof. intros H. exact (proj2 (sat_ok _ _ _ _ (pk_postcard_dec_sat True l) H)). Qed.

Lemma pk_postcard_dec_total l : pk_postcard_dec is_point l <> Panic.
Proof. exact (sat_total _ _ (pk_postcard_dec_sat False l)). Qed.

Definition valid_key (k : bytes) : Prop := length k = 32%nat /\ bytes_ok k = true /\ is_point k = true.

Lemma wf_key_valid k : wf_key is_point k = true <-> valid_key k.
Proof.
  apply andb_assoc_iff. apply andb_iff; [apply Nat.eqb_eq|]. apply andb_iff; apply iff_refl.
Qed.

Lemma pk_slice_roundtrip k : valid_key k -> pk_try_from_slice is_point k = Ok k.
Proof. intros (L & B & P). unfold pk_try_from_slice, pk_from_bytes. now rewrite L, P. Qed.

Lemma pk_from_str_intro s k : decode_base32_hex s = Ok k -> is_point k = true ->
  pk_from_str is_point s = Ok k.
Proof. intros D P. unfold pk_from_str, pk_from_bytes. rewrite D. cbn [bind]. now rewrite P. Qed.

Lemma pk_hex_roundtrip k : valid_key k -> pk_from_str is_point (pk_display k) = Ok k.
Proof. intros (L & B & P). apply pk_from_str_intro; [now apply decode_base32_hex_hex|exact P]. Qed.

Lemma pk_base32_roundtrip k s : valid_key k -> ascii_upper s = pk_base32 k ->
  pk_from_str is_point s = Ok k.
Proof. intros (L & B & P) U. apply pk_from_str_intro; [now apply decode_base32_hex_b32|exact P]. Qed.

Lemma pk_base32_upper_roundtrip k : valid_key k -> pk_from_str is_point (pk_base32 k) = Ok k.
Proof. intros V. apply pk_base32_roundtrip; [exact V|]. apply base32_encode_upper. Qed.

Lemma pk_base32_lower_roundtrip k : valid_key k ->
  pk_from_str is_point (ascii_lower (pk_base32 k)) = Ok k.
Proof.
  intros V. apply pk_base32_roundtrip; [exact V|]. rewrite ascii_upper_lower. apply base32_encode_upper.
Qed.

Lemma pk_z32_roundtrip k : valid_key k -> pk_from_z32 is_point (pk_to_z32 k) = Ok k.
Proof.
  intros V. pose proof V as (L & B & P). unfold pk_from_z32, pk_to_z32.
  rewrite enc_decode_small, (decode_encode _ Z_BASE_32_ok k B); [now apply pk_slice_roundtrip|].
  unfold len. rewrite (encode_length _ Z_BASE_32_ok), L. discriminate.
Qed.

Lemma pk_postcard_roundtrip k rest : valid_key k ->
  pk_postcard_dec is_point (pk_postcard_enc k ++ rest) = Ok (k, rest).
Proof.
  intros V. pose proof V as (L & _). unfold pk_postcard_dec, pk_postcard_enc.
  rewrite firstn_app_length, skipn_app_length, pk_slice_roundtrip by assumption.
  rewrite app_length, L, (proj2 (Nat.ltb_ge _ _) (Nat.le_add_r 32 _)). reflexivity.
Qed.

Lemma pk_from_str_accepts s k : pk_from_str is_point s = Ok k ->
  (length s = 64%nat /\ s = pk_display k) \/ (length s = 52%nat /\ ascii_upper s = pk_base32 k).
Proof.
  unfold pk_from_str, bind. destruct (decode_base32_hex s) as [b| |] eqn:D; try discriminate.
  intros F. apply pk_from_bytes_ok in F as (-> & _).
  apply decode_base32_hex_ok in D as (_ & [(S & D)|(S & D)]); [left|right]; (split; [exact S|symmetry]).
  - exact (encode_decode _ HEXLOWER_ok _ _ eq_refl D).
  - exact (encode_decode _ BASE32_NOPAD_ok _ _ eq_refl D).
Qed.

(* the length premise is that of C02_pk_from_str_canonical; the fact does not need it *)
Lemma pk_from_str_canonical s k : len s <= MAXLEN -> pk_from_str is_point s = Ok k ->
  (length s = 64%nat /\ s = pk_display k) \/ (length s = 52%nat /\ ascii_upper s = pk_base32 k).
Proof. intros _. apply pk_from_str_accepts. Qed.

End Keys.

Example valid_key_exists : exists k, valid_key (fun _ => true) k.
Proof. exists (repeat 0 32). repeat split. Qed.

Example pk_parse_examples :
  pk_from_str (fun _ => true) (str_bytes "foobarbaz") = Err 3 /\
  pk_from_str (fun _ => true) (str_bytes "ae58ff8833241ac82d6ff7611046ed67b5072d142c588d0063e942d9a75502b6")
    = Ok (hex "ae58ff8833241ac82d6ff7611046ed67b5072d142c588d0063e942d9a75502b6") /\
  pk_from_str (fun _ => true) (str_bytes "AE58FF8833241AC82D6FF7611046ED67B5072D142C588D0063E942D9A75502B6") = Err 1 /\
  pk_from_str (fun _ => false) (str_bytes "ae58ff8833241ac82d6ff7611046ed67b5072d142c588d0063e942d9a75502b6") = Err 4.
Proof. vm_compute. repeat split. Qed.

Lemma as_bytes_copy d : as_bytes (copy_from_slice d) = Ok d.
Proof.
  unfold copy_from_slice. destruct (length d <=? 30)%nat; [|reflexivity].
  cbn [as_bytes]. rewrite len_app, (proj2 (N.leb_le _ _) (N.le_add_r _ _)).
  unfold len. now rewrite Nat2N.id, firstn_app_length.
Qed.

Lemma copy_inline_iff d : is_inline (copy_from_slice d) = (length d <=? 30)%nat.
Proof. unfold copy_from_slice. now destruct (length d <=? 30)%nat. Qed.

Lemma copy_wf d : bytes_ok d = true -> len d <= U64_MAX -> wf_cab (copy_from_slice d) = true.
Proof.
  intros B LU. unfold copy_from_slice. destruct (Nat.leb_spec (length d) 30) as [E|E]; cbn [wf_cab].
  - unfold len, bytes_ok in *.
    rewrite Nat2N.id, skipn_app_length, forallb_app, B, !forallb_repeat, app_length, repeat_length by reflexivity.
    rewrite !andb_true_r. lia.
  - rewrite B, andb_true_r. lia.
Qed.

Lemma cab_eqb_refl c : cab_eqb c c = true.
Proof. destruct c; cbn; rewrite ?N.eqb_refl, bytes_eqb_refl; reflexivity. Qed.
Lemma custom_eqb_refl a : custom_eqb a a = true.
Proof. unfold custom_eqb. now rewrite N.eqb_refl, cab_eqb_refl. Qed.

Lemma cab_eqb_eq a b : cab_eqb a b = true -> a = b.
Proof.
  destruct a, b; cbn; try discriminate; intros H.
  - apply andb_prop in H as (H1 & H2). apply N.eqb_eq in H1. apply bytes_eqb_eq in H2. congruence.
  - apply bytes_eqb_eq in H. congruence.
Qed.

(* the representation is a function of the bytes, so the derived Eq is byte equality *)
Lemma from_parts_eq_iff id d id' d' :
  custom_eqb (from_parts id d) (from_parts id' d') = true <-> (id = id' /\ d = d').
Proof.
  apply andb_iff; [apply N.eqb_eq|]. split.
  - intros H. apply cab_eqb_eq in H. cbn [from_parts cdata] in H. pose proof (as_bytes_copy d) as A.
    rewrite H, as_bytes_copy in A. congruence.
  - intros ->. apply cab_eqb_refl.
Qed.

Lemma le_enc_length k n : length (le_enc k n) = k.
Proof. revert n; induction k; intros n; cbn [le_enc length]; auto. Qed.

Lemma le_dec_enc k : forall n, n < 256 ^ N.of_nat k -> le_dec (le_enc k n) = n.
Proof.
  induction k as [|k IH]; intros n H.
  - change (256 ^ N.of_nat 0) with 1 in H. cbn. lia.
  - rewrite Nat2N.inj_succ, N.pow_succ_r' in H. cbn [le_enc le_dec]. rewrite IH.
    + rewrite N.add_comm. symmetry. apply N.div_mod'.
    + apply N.div_lt_upper_bound; [discriminate|exact H].
Qed.

Lemma le_enc_ok k : forall n, bytes_ok (le_enc k n) = true.
Proof.
  induction k as [|k IH]; intros n; cbn [le_enc]; [reflexivity|].
  unfold bytes_ok in *. cbn [forallb]. rewrite IH, andb_true_r.
  apply N.ltb_lt, N.mod_lt. discriminate.
Qed.

Lemma ca_to_vec_parts id d : ca_to_vec (from_parts id d) = Ok (le_enc 8 id ++ d).
Proof. unfold ca_to_vec, from_parts, bind. cbn [cdata cid]. now rewrite as_bytes_copy. Qed.

Lemma ca_display_parts id d :
  ca_display (from_parts id d) = Ok (fmt_lower_hex id ++ [95] ++ encode HEXLOWER d).
Proof. unfold ca_display, from_parts, bind. cbn [cdata cid]. now rewrite as_bytes_copy. Qed.

Lemma ca_postcard_parts id d :
  ca_postcard_enc (from_parts id d) = Ok (varint_u64_enc id ++ varint_u64_enc (len d) ++ d).
Proof. unfold ca_postcard_enc, from_parts, bind. cbn [cdata cid]. now rewrite as_bytes_copy. Qed.

Lemma ca_bin_roundtrip id d : id <= U64_MAX ->
  ca_from_bytes (le_enc 8 id ++ d) = Ok (from_parts id d).
Proof.
  intros H. unfold ca_from_bytes.
  rewrite firstn_app_length, skipn_app_length, app_length, le_enc_length by apply le_enc_length.
  rewrite (proj2 (Nat.ltb_ge _ _) (Nat.le_add_r 8 _)), le_dec_enc; [reflexivity|].
  change (256 ^ N.of_nat 8) with (U64_MAX + 1). lia.
Qed.

Lemma ca_from_bytes_short b : (length b < 8)%nat -> ca_from_bytes b = Err 1.
Proof. intros H. unfold ca_from_bytes. apply Nat.ltb_lt in H. now rewrite H. Qed.

(* a hex digit is 0-9 or a-f, never '_' *)
Lemma fmt_lower_hex_no_sep n : ~ In 95 (fmt_lower_hex n).
Proof.
  unfold fmt_lower_hex. intros Hc. apply in_map_iff in Hc as (d & E & _). unfold digit_char in E.
  destruct (N.ltb_spec d 10); lia.
Qed.

Lemma enc_decode_hex_roundtrip d : bytes_ok d = true -> 2 * len d <= MAXLEN ->
  enc_decode HEXLOWER (encode HEXLOWER d) = Ok d.
Proof.
  intros B H. rewrite enc_decode_small; [exact (decode_encode _ HEXLOWER_ok d B)|].
  unfold len in *. rewrite (encode_length HEXLOWER HEXLOWER_ok). change (bitw HEXLOWER) with 4%nat.
  unfold encode_len. lia.
Qed.

Lemma ca_str_roundtrip id d : id <= U64_MAX -> bytes_ok d = true -> 2 * len d <= MAXLEN ->
  ca_from_str (fmt_lower_hex id ++ [95] ++ encode HEXLOWER d) = Ok (from_parts id d).
Proof.
  intros H B L. unfold ca_from_str. cbn [app].
  rewrite Proofs.C12.split_once_app by apply fmt_lower_hex_no_sep.
  rewrite from_str_radix_fmt by exact H.
  now rewrite enc_decode_hex_roundtrip.
Qed.

(* every parser builds its result with from_parts, so an accepted CustomAddr has the accessors
   of a constructed one *)
Definition built (a : custom) : Prop := exists id d, a = from_parts id d.

Lemma ca_from_str_sat s : sat (MAXLEN < len s) built (ca_from_str s).
Proof.
  unfold ca_from_str. destruct (split_once 95 s) as [(x, y)|] eqn:S; [|exact I].
  destruct (u64_from_str_radix16 x) as [id|]; [|exact I].
  apply Proofs.C12.split_once_some in S as [-> _].
  eapply sat_bind with (P := fun _ => True); [|intros d _; now exists id, d].
  apply sat_intro; [|auto]. intros E. apply N.lt_nge. intros L. revert E. apply enc_decode_total.
  rewrite len_app, len_cons in L. lia.
Qed.

Lemma dec_bytes_roundtrip d rest : len d <= U64_MAX ->
  dec_bytes (varint_u64_enc (len d) ++ d ++ rest) = Ok (d, rest).
Proof.
  intros H. unfold dec_bytes, bind. rewrite varint_u64_roundtrip by exact H.
  rewrite len_app, (proj2 (N.ltb_ge _ _) (N.le_add_r _ _)).
  unfold len. now rewrite Nat2N.id, firstn_app_length, skipn_app_length.
Qed.

Lemma ca_postcard_roundtrip id d rest : id <= U64_MAX -> len d <= U64_MAX ->
  ca_postcard_dec (varint_u64_enc id ++ varint_u64_enc (len d) ++ d ++ rest) = Ok (from_parts id d, rest).
Proof.
  intros H L. unfold ca_postcard_dec, bind. rewrite varint_u64_roundtrip by exact H.
  now rewrite dec_bytes_roundtrip.
Qed.

Lemma dec_bytes_total l : dec_bytes l <> Panic.
Proof.
  eapply (sat_total (fun _ => True)), sat_bind; [apply total_sat, leb_dec_total|]. intros (n, r) _.
  destruct (len r <? n); exact I.
Qed.

Lemma ca_from_bytes_sat Q b : sat Q built (ca_from_bytes b).
Proof. unfold ca_from_bytes. destruct (length b <? 8)%nat; [exact I|]. eexists _, _. reflexivity. Qed.

Lemma ca_postcard_dec_sat Q l : sat Q (fun p => built (fst p)) (ca_postcard_dec l).
Proof.
  eapply sat_bind; [apply total_sat, leb_dec_total|]. intros (id, r) _.
  eapply sat_bind; [apply total_sat, dec_bytes_total|]. intros (d, r2) _.
  now exists id, d.
Qed.

Lemma custom_parse_total s :
  (len s <= MAXLEN -> ca_from_str s <> Panic) /\ ca_from_bytes s <> Panic /\ ca_postcard_dec s <> Panic.
Proof.
  split; [|split].
  - intros L. apply (sat_no_panic _ _ _ (ca_from_str_sat s)). lia.
  - eapply sat_total, ca_from_bytes_sat.
  - eapply sat_total, ca_postcard_dec_sat.
Qed.

Lemma custom_str_roundtrip id d : id <= U64_MAX -> bytes_ok d = true -> 2 * len d <= MAXLEN ->
  ca_display (from_parts id d) >>= ca_from_str = Ok (from_parts id d).
Proof. intros. rewrite ca_display_parts. cbn [bind]. now apply ca_str_roundtrip. Qed.

Lemma custom_bin_roundtrip id d : id <= U64_MAX ->
  ca_to_vec (from_parts id d) >>= ca_from_bytes = Ok (from_parts id d).
Proof. intros. rewrite ca_to_vec_parts. cbn [bind]. now apply ca_bin_roundtrip. Qed.

Lemma lex_opp c1 c2 : lex (CompOpp c1) (CompOpp c2) = CompOpp (lex c1 c2).
Proof. destruct c1; reflexivity. Qed.

Lemma bytes_cmp_antisym : forall a b, bytes_cmp b a = CompOpp (bytes_cmp a b).
Proof.
  induction a as [|x a IH]; intros [|y b]; cbn [bytes_cmp]; try reflexivity.
  rewrite (N.compare_antisym x y). destruct (x ?= y); cbn [CompOpp]; auto.
Qed.

Lemma cab_cmp_antisym a b : cab_cmp b a = CompOpp (cab_cmp a b).
Proof.
  destruct a as [s d|d], b as [s' d'|d']; cbn [cab_cmp]; try reflexivity.
  - rewrite (N.compare_antisym s s'), (bytes_cmp_antisym d d'). apply lex_opp.
  - apply bytes_cmp_antisym.
Qed.

Lemma sock_cmp_antisym a b : sock_cmp b a = CompOpp (sock_cmp a b).
Proof.
  destruct a as [i p|i p f s], b as [i' p'|i' p' f' s']; cbn [sock_cmp]; try reflexivity.
  - rewrite (bytes_cmp_antisym i i'), (N.compare_antisym p p'). apply lex_opp.
  - rewrite (bytes_cmp_antisym i i'), (N.compare_antisym p p'), (N.compare_antisym f f'),
      (N.compare_antisym s s'), !lex_opp. reflexivity.
Qed.

Lemma taddr_cmp_antisym a b : taddr_cmp b a = CompOpp (taddr_cmp a b).
Proof.
  destruct a as [u|x|x], b as [u'|y|y]; cbn [taddr_cmp]; try reflexivity.
  - apply bytes_cmp_antisym.
  - apply sock_cmp_antisym.
  - unfold custom_cmp. rewrite (N.compare_antisym (cid x) (cid y)), (cab_cmp_antisym (cdata x) (cdata y)).
    apply lex_opp.
Qed.

(* Props/C02.v spells this relation out; its theorems meet the lemmas below by conversion *)
Definition taddr_lt (a b : taddr) : Prop := taddr_cmp a b = Lt.

Lemma gt_lt a p : match taddr_cmp a p with Gt => true | _ => false end = true <-> taddr_lt p a.
Proof.
  unfold taddr_lt. rewrite (taddr_cmp_antisym a p). destruct (taddr_cmp a p); cbn [CompOpp]; split; congruence.
Qed.

Lemma ascending_spec : forall l prev, ascending prev l = true <->
  (forall p a, In p prev -> In a l -> taddr_lt p a) /\ StronglySorted taddr_lt l.
Proof.
  induction l as [|a r IH]; intros prev; cbn [ascending].
  - split; [intros _; split; [easy|constructor]|reflexivity].
  - etransitivity; [eapply andb_iff; [apply forallb_forall|apply IH]|]. split.
    + intros (H1 & H2 & H3). split.
      * intros p x Hp [<-|Hx]; [apply gt_lt, H1, Hp|apply H2; auto using in_or_app].
      * constructor; [exact H3|]. apply Forall_forall. intros x Hx. apply H2; auto using in_elt.
    + intros (H1 & H2). apply StronglySorted_inv in H2 as (H2 & H3). rewrite Forall_forall in H3.
      split; [|split; [|exact H2]].
      * intros x Hx. apply gt_lt, H1; [exact Hx|now left].
      * intros p x Hp Hx. apply in_app_or in Hp as [Hp|[<-|[]]]; [apply H1; [|right]; assumption|exact (H3 x Hx)].
Qed.

Lemma ascending_sorted l : ascending [] l = true <-> StronglySorted taddr_lt l.
Proof. rewrite ascending_spec. split; [tauto|]. intros H. now split. Qed.

Lemma set_insert_last a : forall acc,
  forallb (fun p => match taddr_cmp a p with Gt => true | _ => false end) acc = true ->
  set_insert a acc = acc ++ [a].
Proof.
  induction acc as [|x r IH]; cbn [forallb set_insert app]; [reflexivity|].
  intros H. apply andb_prop in H as (H1 & H2).
  destruct (taddr_cmp a x); try discriminate. now rewrite IH.
Qed.

(* each element is inserted above those before it: the set is the list *)
Lemma set_insert_ascending : forall l acc, ascending acc l = true ->
  fold_left (fun s a => set_insert a s) l acc = acc ++ l.
Proof.
  induction l as [|a r IH]; cbn [ascending fold_left]; intros acc A; [now rewrite app_nil_r|].
  apply andb_prop in A as (A1 & A2).
  rewrite (set_insert_last _ _ A1), IH, <- app_assoc by exact A2. reflexivity.
Qed.

Lemma wf_cab_copy c : wf_cab c = true -> exists d, c = copy_from_slice d /\ len d <= U64_MAX.
Proof.
  destruct c as [s d|d]; cbn [wf_cab]; intros W.
  - apply andb_prop in W as (W & Z). apply andb_prop in W as (W & _). apply andb_prop in W as (S & L).
    apply N.leb_le in S. apply Nat.eqb_eq in L. exists (firstn (N.to_nat s) d).
    assert (Lf : length (firstn (N.to_nat s) d) = N.to_nat s) by (rewrite firstn_length; lia).
    split; [|unfold len, U64_MAX; lia].
    unfold copy_from_slice, len. rewrite Lf, N2Nat.id. destruct (Nat.leb_spec (N.to_nat s) 30); [|lia].
    f_equal. rewrite <- (firstn_skipn (N.to_nat s) d) at 1. f_equal.
    apply (forallb_eq_repeat _ 0) in Z; [|intros y E; symmetry; now apply N.eqb_eq].
    rewrite Z, skipn_length. f_equal. lia.
  - apply andb_prop in W as (W & LU). apply andb_prop in W as (L & _).
    apply N.leb_le in LU. apply Nat.ltb_lt in L. exists d. split; [|exact LU].
    unfold copy_from_slice. destruct (Nat.leb_spec (length d) 30); [lia|reflexivity].
Qed.

Lemma dec_u8s_app k ip rest : length ip = k -> dec_u8s k (ip ++ rest) = Ok (ip, rest).
Proof.
  intros <-. unfold dec_u8s. rewrite firstn_app_length, skipn_app_length, app_length by reflexivity.
  rewrite (proj2 (Nat.ltb_ge _ _) (Nat.le_add_r _ _)). reflexivity.
Qed.

(* the variant index of an enum.  Once it is read, the decoder's tests `v =? 0`, `v =? 1` are between
   numerals, and [cbn] leaves them standing (Lib.Base makes N.eqb `simpl never`): hence the
   [cbv delta [bind N.eqb Pos.eqb]] after each use *)
Lemma tag_roundtrip v rest : (v <=? 2) = true -> varint_u32_dec (varint_u32_enc v ++ rest) = Ok (v, rest).
Proof. intros H. apply varint_u32_roundtrip. unfold U32_MAX. lia. Qed.

Lemma sock_roundtrip a rest : wf_sock a = true -> v6_plain (Ip a) = true ->
  sock_dec (sock_enc a ++ rest) = Ok (a, rest).
Proof.
  destruct a as [ip p|ip p f s]; cbn [wf_sock v6_plain sock_enc]; intros W V; unfold sock_dec;
    rewrite <- !app_assoc, tag_roundtrip by reflexivity; cbv beta iota delta [bind N.eqb Pos.eqb].
  - apply andb_prop in W as (W & P). apply andb_prop in W as (L & _).
    apply Nat.eqb_eq in L. apply N.leb_le in P.
    rewrite dec_u8s_app by exact L. cbv beta iota. rewrite varint_u16_roundtrip by exact P. reflexivity.
  - apply andb_prop in V as (F & S). apply N.eqb_eq in F, S. subst f s.
    apply andb_prop in W as (W & _). apply andb_prop in W as (W & _).
    apply andb_prop in W as (W & P). apply andb_prop in W as (L & _).
    apply Nat.eqb_eq in L. apply N.leb_le in P.
    rewrite dec_u8s_app by exact L. cbv beta iota. rewrite varint_u16_roundtrip by exact P. reflexivity.
Qed.

(* an encoding starts with its variant index, so it is not empty: the decoder's fuel counts on it *)
Lemma taddr_enc_nonempty a x : taddr_enc a = Ok x -> (0 < length x)%nat.
Proof.
  destruct a as [u|s|c]; cbn [taddr_enc].
  3: destruct (ca_postcard_enc c); cbn [bind]; try discriminate.
  all: intros [= <-]; apply Nat.lt_0_succ.
Qed.

Section Addr.
Variable is_point : bytes -> bool.
Variable url_parse : bytes -> res bytes.

Lemma taddr_roundtrip a : wf_taddr url_parse a = true -> v6_plain a = true ->
  exists x, taddr_enc a = Ok x /\ forall rest, taddr_dec url_parse (x ++ rest) = Ok (a, rest).
Proof.
  destruct a as [u|a|c]; cbn [wf_taddr taddr_enc]; intros W V.
  - apply andb_prop in W as (W & U). apply (res_eqb_iff _ bytes_eqb_iff) in U.
    apply andb_prop in W as (_ & L). apply N.leb_le in L.
    eexists. split; [reflexivity|].
    intros rest. unfold taddr_dec.
    rewrite <- !app_assoc, tag_roundtrip by reflexivity. cbv beta iota delta [bind N.eqb Pos.eqb].
    rewrite dec_bytes_roundtrip by exact L. cbv beta iota. rewrite U. reflexivity.
  - eexists. split; [reflexivity|].
    intros rest. unfold taddr_dec.
    rewrite <- !app_assoc, tag_roundtrip by reflexivity. cbv beta iota delta [bind N.eqb Pos.eqb].
    rewrite sock_roundtrip by assumption. reflexivity.
  - apply andb_prop in W as (I & W). destruct (wf_cab_copy _ W) as (d & C & L).
    destruct c as [id cd]. cbn [cid cdata] in *. subst cd. fold (from_parts id d). apply N.leb_le in I.
    rewrite ca_postcard_parts. cbn [bind].
    eexists. split; [reflexivity|].
    intros rest. unfold taddr_dec.
    rewrite <- !app_assoc, tag_roundtrip by reflexivity. cbv beta iota delta [bind N.eqb Pos.eqb].
    rewrite ca_postcard_roundtrip by assumption. reflexivity.
Qed.

Lemma taddrs_roundtrip : forall l,
  forallb (wf_taddr url_parse) l = true -> forallb v6_plain l = true ->
  exists b, taddrs_enc l = Ok b /\ (length l <= length b)%nat /\
    forall rest acc fuel, (length l <= fuel)%nat ->
      taddrs_dec url_parse fuel (len l) (b ++ rest) acc =
      Ok (fold_left (fun s a => set_insert a s) l acc, rest).
Proof.
  induction l as [|a r IH]; cbn [forallb]; intros W V.
  - exists []. split; [reflexivity|]. split; [reflexivity|]. intros rest acc fuel _.
    destruct fuel; reflexivity.
  - apply andb_prop in W as (Wa & Wr). apply andb_prop in V as (Va & Vr).
    destruct (taddr_roundtrip a Wa Va) as (x & Ex & Dx). pose proof (taddr_enc_nonempty a x Ex) as Lx.
    destruct (IH Wr Vr) as (y & Ey & Ly & Dy).
    clear IH Wa Wr Va Vr.
    exists (x ++ y). cbn [taddrs_enc]. rewrite Ex. cbn [bind]. rewrite Ey. cbn [bind].
    split; [reflexivity|]. split; [rewrite app_length; cbn [length]; lia|].
    intros rest acc [|f] F; [destruct (Nat.nle_succ_0 _ F)|]. apply le_S_n in F.
    cbn [taddrs_dec]. rewrite len_cons. destruct (N.eqb_spec (len r + 1) 0) as [Z|_]; [clear - Z; lia|].
    rewrite <- app_assoc, Dx, N.add_sub. cbn [bind fold_left]. now apply Dy.
Qed.

Lemma ea_roundtrip e rest : wf_eaddr is_point url_parse e = true -> forallb v6_plain (eaddrs e) = true ->
  exists b, ea_enc e = Ok b /\ ea_dec is_point url_parse (b ++ rest) = Ok (e, rest).
Proof.
  intros W V. unfold wf_eaddr in W. apply andb_prop in W as (W & LU). apply andb_prop in W as (W & A).
  apply andb_prop in W as (K & WA). apply wf_key_valid in K. apply N.leb_le in LU.
  destruct (taddrs_roundtrip (eaddrs e) WA V) as (b & Eb & Lb & Db).
  unfold ea_enc. rewrite Eb. cbn [bind]. eexists. split; [reflexivity|].
  unfold ea_dec. rewrite <- !app_assoc.
  change (eid e) with (pk_postcard_enc (eid e)) at 1.
  rewrite pk_postcard_roundtrip by exact K. cbn [bind].
  rewrite varint_u64_roundtrip by exact LU. cbn [bind].
  rewrite Db, set_insert_ascending by (exact A || (rewrite app_length; clear - Lb; lia)). cbn [bind app].
  destruct e; reflexivity.
Qed.

End Addr.

(* wf_eaddr and v6_plain as a Prop *)
Definition wf_endpoint_addr (is_point : bytes -> bool) (url_parse : bytes -> res bytes) (e : eaddr) : Prop :=
  valid_key is_point (eid e) /\
  Forall (fun a => wf_taddr url_parse a = true /\ v6_plain a = true) (eaddrs e) /\
  StronglySorted taddr_lt (eaddrs e) /\
  len (eaddrs e) <= U64_MAX.

Lemma endpoint_addr_postcard_roundtrip is_point url_parse e rest :
  wf_endpoint_addr is_point url_parse e ->
  exists b, ea_enc e = Ok b /\ ea_dec is_point url_parse (b ++ rest) = Ok (e, rest).
Proof.
  intros (K & F & S & L). apply Forall_and_inv in F as (W & V).
  rewrite Forall_forall, <- forallb_forall in W, V.
  apply ea_roundtrip; [|exact V]. unfold wf_eaddr.
  rewrite W, (proj2 (wf_key_valid _ _) K), (proj2 (ascending_sorted _) S). now apply N.leb_le.
Qed.

Lemma dec_u8s_total k l : dec_u8s k l <> Panic.
Proof. unfold dec_u8s. destruct (length l <? k)%nat; discriminate. Qed.

Lemma sock_dec_total l : sock_dec l <> Panic.
Proof.
  unfold sock_dec. eapply (sat_total (fun _ => True)), sat_bind; [apply total_sat, leb_dec_total|].
  intros (v, r) _. destruct (v =? 0); [|destruct (v =? 1); [|exact I]];
    (eapply sat_bind; [apply total_sat, dec_u8s_total|]; intros (ip, r2) _;
     eapply sat_bind; [apply total_sat, leb_dec_total|]; intros (p, r3) _; exact I).
Qed.

(* serialisation can only fail on a CustomAddr whose as_bytes panics, and the decoder builds none *)
Definition encodable (a : taddr) : Prop := exists x, taddr_enc a = Ok x.

Lemma set_insert_Forall (P : taddr -> Prop) a : forall acc,
  P a -> Forall P acc -> Forall P (set_insert a acc).
Proof.
  induction acc as [|x r IH]; intros Pa F; cbn [set_insert]; [constructor; auto|].
  inversion F; subst. destruct (taddr_cmp a x); auto.
Qed.

Lemma taddrs_enc_encodable l : Forall encodable l -> exists b, taddrs_enc l = Ok b.
Proof.
  induction 1 as [|a r (x & Ex) _ (y & Ey)]; [exists []; reflexivity|].
  cbn [taddrs_enc]. rewrite Ex. cbn [bind]. rewrite Ey. cbn [bind]. eauto.
Qed.

(* Q is what a panic of url_parse implies: at False the decoder is total for a total url_parse
   (endpoint_addr_decode_total), at True what it accepts is described for any url_parse (ea_dec_ok) *)
Section AddrSat.
Variable is_point : bytes -> bool.
Variable url_parse : bytes -> res bytes.
Variable Q : Prop.
Hypothesis url_parse_sat : forall s, url_parse s = Panic -> Q.

Lemma taddr_dec_sat l : sat Q (fun p => encodable (fst p)) (taddr_dec url_parse l).
Proof.
  eapply sat_bind; [apply total_sat, leb_dec_total|]. intros (v, r) _.
  destruct (v =? 0); [|destruct (v =? 1); [|destruct (v =? 2); [|exact I]]].
  - eapply sat_bind; [apply total_sat, dec_bytes_total|]. intros (s, r2) _.
    eapply sat_bind with (P := fun _ => True); [apply sat_intro; [apply url_parse_sat|auto]|].
    intros u _. eexists. reflexivity.
  - eapply sat_bind; [apply total_sat, sock_dec_total|]. intros (a, r2) _.
    eexists. reflexivity.
  - eapply sat_bind; [apply ca_postcard_dec_sat|]. intros (c, r2) (id & d & E).
    cbn [sat fst] in *. subst c. unfold encodable. cbn [taddr_enc]. rewrite ca_postcard_parts.
    eexists. reflexivity.
Qed.

Lemma taddrs_dec_sat : forall fuel cnt l acc, Forall encodable acc ->
  sat Q (fun p => Forall encodable (fst p)) (taddrs_dec url_parse fuel cnt l acc).
Proof.
  induction fuel as [|f IH]; intros cnt l acc F; cbn [taddrs_dec];
    (destruct (cnt =? 0); [exact F|]); [exact I|].
  eapply sat_bind; [apply taddr_dec_sat|]. intros (a, r) E.
  apply IH, set_insert_Forall; assumption.
Qed.

Lemma ea_dec_sat l :
  sat Q (fun p => eid (fst p) = firstn 32 l /\ length (eid (fst p)) = 32%nat /\
                  is_point (eid (fst p)) = true /\ exists b, ea_enc (fst p) = Ok b)
    (ea_dec is_point url_parse l).
Proof.
  eapply sat_bind; [apply pk_postcard_dec_sat|]. intros (k, r) (K & P & L).
  eapply sat_bind; [apply total_sat, leb_dec_total|]. intros (cnt, r2) _.
  eapply sat_bind; [apply taddrs_dec_sat; constructor|]. intros (out, r3) T.
  cbn [sat fst eid] in *. repeat (split; [assumption|]).
  destruct (taddrs_enc_encodable _ T) as (b & Eb). unfold ea_enc. cbn [eid eaddrs]. rewrite Eb.
  cbn [bind]. eauto.
Qed.

End AddrSat.

Lemma ea_dec_ok is_point url_parse l e r : ea_dec is_point url_parse l = Ok (e, r) ->
  eid e = firstn 32 l /\ length (eid e) = 32%nat /\ is_point (eid e) = true /\ exists b, ea_enc e = Ok b.
Proof. exact (sat_ok _ _ _ _ (ea_dec_sat is_point url_parse True (fun _ _ => I) l)). Qed.

Lemma endpoint_addr_decode_total is_point url_parse b :
  (forall s, url_parse s <> Panic) -> ea_dec is_point url_parse b <> Panic.
Proof. intros H. eapply sat_total, ea_dec_sat, H. Qed.

Lemma ca_obs_parts id d :
  ca_obs (from_parts id d) =
  [Ok (le_enc 8 id ++ d); Ok (fmt_lower_hex id ++ [95] ++ encode HEXLOWER d);
   flag (length d <=? 30)%nat].
Proof.
  unfold ca_obs. rewrite ca_to_vec_parts, ca_display_parts. unfold from_parts. cbn [cdata].
  now rewrite copy_inline_iff.
Qed.

Lemma pk_accept_obs isp k : isp k = true /\ length k = 32%nat -> pk_accept_ok isp (pk_obs k) = true.
Proof. intros (P & L). unfold pk_accept_ok, pk_obs. rewrite L, P. reflexivity. Qed.

Lemma ca_accept_built a : built a -> ca_accept_ok (ca_obs a) = true.
Proof.
  intros (id & d & ->). rewrite ca_obs_parts. unfold ca_accept_ok, flag.
  rewrite app_length, le_enc_length.
  replace (8 + length d - 8)%nat with (length d) by lia.
  destruct (length d <=? 30)%nat; reflexivity.
Qed.

(* the shape of a parser's clause in [monitor].  The model's side is stated over the match: [g] is
   the identity where the model says `>>=` and constant where it replaces the error code (OpPkJson) *)
Lemma mon_parse {A} (r : res A) (obs : A -> list (res bytes)) (ok : list (res bytes) -> bool)
    (refusal_ok : bool) (g : N -> N) :
  r <> Panic -> (forall a, r = Ok a -> ok (obs a) = true) -> (forall e, r = Err e -> refusal_ok = true) ->
  match (match r with Ok a => Ok (OBytes (obs a)) | Err e => Err (g e) | Panic => Panic end) with
  | Ok (OBytes l) => ok l
  | Ok _ => false
  | Err _ => refusal_ok
  | Panic => false
  end = true.
Proof. intros T H E. destruct r as [a|e|]; [now apply H|now apply (E e)|congruence]. Qed.

Lemma no_trailing_ok {A} (r : res (A * bytes)) a : no_trailing r = Ok a -> exists t, r = Ok (a, t).
Proof. unfold no_trailing, bind. destruct r as [(x, t)| |]; try discriminate. intros [= <-]. eauto. Qed.

Lemma no_trailing_total {A} (r : res (A * bytes)) : r <> Panic -> no_trailing r <> Panic.
Proof. unfold no_trailing, bind. destruct r as [(x, t)| |]; try discriminate. congruence. Qed.

(* the string-parser clauses of [monitor] hold vacuously of strings longer than usize::MAX / 8 *)
Lemma within_maxlen (s : bytes) (b : bool) :
  (len s <= MAXLEN -> b = true) -> (if MAXLEN <? len s then true else b) = true.
Proof. intros H. destruct (N.ltb_spec MAXLEN (len s)); [reflexivity|now apply H]. Qed.

Lemma ca_back_self id d :
  ca_back (from_parts id d) (Ok (from_parts id d)) =
  [Ok (le_enc 8 id ++ d); flag (length d <=? 30)%nat; Ok [1]].
Proof.
  unfold ca_back. rewrite ca_to_vec_parts, custom_eqb_refl. cbn [from_parts cdata].
  now rewrite copy_inline_iff.
Qed.

Lemma sock_eqb_refl a : sock_eqb a a = true.
Proof. destruct a; cbn [sock_eqb]; rewrite bytes_eqb_refl, ?N.eqb_refl; reflexivity. Qed.
Lemma taddr_eqb_refl a : taddr_eqb a a = true.
Proof. destruct a; cbn [taddr_eqb]; [apply bytes_eqb_refl|apply sock_eqb_refl|apply custom_eqb_refl]. Qed.
Lemma eaddr_eqb_refl e : eaddr_eqb e e = true.
Proof. unfold eaddr_eqb. rewrite bytes_eqb_refl. cbn [andb]. apply list_eqb_refl, taddr_eqb_refl. Qed.

Lemma v6_plain_noflow l : forallb v6_plain l = true -> forallb v6_noflow l = true.
Proof.
  intros F. apply forallb_forall. intros a Ha. pose proof (proj1 (forallb_forall _ _) F a Ha) as H.
  destruct a as [u|[ip p|ip p f s]|c]; cbn [v6_plain v6_noflow] in *; auto.
  now apply andb_prop in H as (H & _).
Qed.

Lemma url_table_total_spec urls : url_table_total urls = true -> forall s, url_parse_of urls s <> Panic.
Proof.
  unfold url_table_total, url_parse_of. intros H s.
  induction urls as [|(k, v) t IH]; cbn [lookup]; [discriminate|].
  cbn [forallb snd] in H. apply andb_prop in H as (H1 & H2).
  destruct (bytes_eqb k s); [|now apply IH]. destruct v; [discriminate|discriminate|discriminate H1].
Qed.

Lemma monitor_model i : known i = 0 -> monitor i (model i) = true.
Proof.
  destruct i as ((o, pts), urls). intros K.
  destruct o as [s|s|b|b|s|s|b|b|s|b|b|id d|e|b|k m sg honest vo];
    unfold monitor, model; set (isp := is_point_of pts).
  - apply within_maxlen. intros E. apply mon_parse; [now apply pk_from_str_total| |reflexivity].
    intros k H. apply pk_accept_obs, (pk_from_str_ok _ _ _ H).
  - apply within_maxlen. intros E. apply mon_parse; [now apply pk_from_z32_total| |reflexivity].
    intros k H. apply pk_accept_obs, (pk_from_z32_ok _ _ _ H).
  - apply mon_parse; [apply pk_try_from_slice_total| |reflexivity].
    intros k H. apply pk_accept_obs, (pk_try_from_slice_ok _ _ _ H).
  - apply mon_parse; [apply no_trailing_total, pk_postcard_dec_total| |reflexivity].
    intros k H. apply no_trailing_ok in H as (t & H). apply pk_accept_obs, (pk_postcard_dec_ok _ _ _ _ H).
  - apply within_maxlen. intros E. apply mon_parse; [now apply pk_from_str_total| |reflexivity].
    intros k H. apply pk_accept_obs, (pk_from_str_ok _ _ _ H).
  - apply within_maxlen. intros E. apply mon_parse; [now apply decode_base32_hex_total| |reflexivity].
    intros k H. apply decode_base32_hex_ok in H as (-> & _). reflexivity.
  - destruct ((length b =? 32)%nat && bytes_ok b) eqn:W; [|reflexivity]. cbn [negb].
    apply andb_prop in W as (L & B). apply Nat.eqb_eq in L.
    destruct (isp b) eqn:P.
    + assert (V : valid_key isp b) by (repeat split; assumption).
      rewrite (pk_slice_roundtrip isp b V). cbn [bind].
      rewrite (pk_hex_roundtrip isp b V), (pk_base32_upper_roundtrip isp b V),
        (pk_base32_lower_roundtrip isp b V), (pk_z32_roundtrip isp b V).
      pose proof (pk_postcard_roundtrip isp b [] V) as PC. rewrite app_nil_r in PC. rewrite PC.
      unfold no_trailing. cbn [bind all_ok_eq forallb length Nat.eqb].
      unfold rb_eqb. cbn [res_eqb]. rewrite bytes_eqb_refl. reflexivity.
    + unfold pk_try_from_slice, pk_from_bytes. rewrite L, P. reflexivity.
  - unfold sig_postcard_dec, no_trailing.
    destruct (Nat.ltb_spec (length b) 64) as [E|E]; cbn [bind]; [reflexivity|].
    rewrite firstn_length, Nat.min_l by exact E. reflexivity.
  - apply within_maxlen. intros E. apply mon_parse; [now apply custom_parse_total| |reflexivity].
    intros a H. apply ca_accept_built, (sat_ok _ _ _ _ (ca_from_str_sat s) H).
  - apply mon_parse; [apply custom_parse_total| |].
    + intros a H. apply ca_accept_built, (sat_ok _ _ _ _ (ca_from_bytes_sat True b) H).
    + unfold ca_from_bytes. destruct (length b <? 8)%nat; [reflexivity|discriminate].
  - apply mon_parse; [apply no_trailing_total, custom_parse_total| |reflexivity].
    intros a H. apply no_trailing_ok in H as (t & H). apply ca_accept_built, (sat_ok _ _ _ _ (ca_postcard_dec_sat True b) H).
  - destruct ((id <=? U64_MAX) && bytes_ok d && (2 * len d <=? MAXLEN)) eqn:W; [|reflexivity].
    cbn [negb]. apply andb_prop in W as (W & HL). apply andb_prop in W as (Hid & B).
    apply N.leb_le in Hid, HL.
    assert (HL2 : len d <= U64_MAX) by (clear - HL; unfold MAXLEN, U64_MAX in *; lia).
    pose proof (ca_postcard_roundtrip id d [] Hid HL2) as PC. rewrite app_nil_r in PC.
    rewrite custom_str_roundtrip, custom_bin_roundtrip, ca_postcard_parts by assumption.
    cbn [bind from_parts cdata cid]. rewrite PC, as_bytes_copy. cbn [bind no_trailing].
    fold (from_parts id d). rewrite ca_back_self, ca_obs_parts.
    unfold flag. cbn [app triples_ok length Nat.eqb].
    rewrite !bytes_eqb_refl. destruct (length d <=? 30)%nat; reflexivity.
  - unfold known in K. cbn [fst] in K. destruct (forallb v6_plain (eaddrs e)) eqn:V; [|discriminate].
    destruct (wf_eaddr isp (url_parse_of urls) e) eqn:W; [|reflexivity]. cbn [negb].
    destruct (ea_roundtrip _ _ e [] W V) as (b & Eb & Db). rewrite app_nil_r in Db.
    rewrite Eb. cbn [bind]. rewrite Db. unfold no_trailing. cbn [bind].
    rewrite (v6_plain_noflow _ V), eaddr_eqb_refl. reflexivity.
  - destruct (bytes_ok b && url_table_total urls) eqn:G; [|reflexivity]. cbn [negb].
    apply andb_prop in G as (B & U).
    pose proof (ea_dec_sat isp _ False (url_table_total_spec _ U) b) as S.
    destruct (ea_dec isp (url_parse_of urls) b) as [(e', r)| |];
      unfold no_trailing; cbn [bind]; [|reflexivity|contradiction].
    destruct S as (F & L & P & x & Ex). cbn [fst] in *. rewrite Ex.
    unfold wf_key. rewrite L, P, F. unfold bytes_ok. now rewrite forallb_firstn.
  - (* the model answers with the oracle entry vo, which the guard equates with honest *)
    unfold pk_try_from_slice, pk_from_bytes, flag.
    destruct (Bool.eqb_spec vo honest) as [->|]; [|reflexivity].
    destruct (length k =? 32)%nat, (isp k), honest; reflexivity.
Qed.

Lemma verdict_spec (o : output) (want : N) (refusal_ok : bool) :
  match o with
  | Ok (OBytes [Ok [f]]) => N.eqb f want
  | Ok _ => false
  | Err _ => refusal_ok
  | Panic => false
  end = true <-> o = Ok (OBytes [Ok [want]]) \/ (refusal_ok = true /\ exists e, o = Err e).
Proof.
  split.
  - destruct o as [[[|[[|f [|? ?]]|?|] [|? ?]]|? ?]|e|]; try discriminate.
    + intros H. apply N.eqb_eq in H. subst f. now left.
    + intros R. right. eauto.
  - intros [->|(R & e & ->)]; [apply N.eqb_refl|exact R].
Qed.

(* the cases the harness produces: vo = honest, and an honest key is a 32-byte curve point *)
Lemma monitor_verify_spec k m sg honest pts urls (o : output) :
  (honest = true -> length k = 32%nat /\ is_point_of pts k = true) ->
  monitor (OpVerify k m sg honest honest, pts, urls) o = true <->
  (if honest then o = Ok (OBytes [Ok [1]])
   else o = Ok (OBytes [Ok [0]]) \/ exists e, o = Err e).
Proof.
  intros H. unfold monitor. rewrite Bool.eqb_reflx. cbn [negb orb].
  destruct honest; cbn [andb negb].
  - destruct (H eq_refl) as (-> & ->). cbn [Nat.eqb andb negb]. rewrite verdict_spec.
    split; [intros [E|([=] & _)]; exact E|now left].
  - rewrite verdict_spec. split; [intros [E|(_ & E)]; auto|intros [E|E]; auto].
Qed.

(* the identity point as key, R = identity, S = 0, any message: a crafted signature *)
Definition weak_key : bytes := 1 :: repeat 0 31.
Definition weak_sig : bytes := 1 :: repeat 0 63.
Definition verify_weak (m : bytes) : input :=
  (OpVerify weak_key m weak_sig false false, [(weak_key, true)], []).

(* the input carries the oracle entry "rejected", the answer of strict verification; the model
   returns it, and the monitor fails on "accepted", the answer of non-strict verification *)
Example verify_weak_ex m :
  known (verify_weak m) = 0 /\ model (verify_weak m) = Ok (OBytes [Ok [0]]) /\
  monitor (verify_weak m) (Ok (OBytes [Ok [0]])) = true /\
  monitor (verify_weak m) (Ok (OBytes [Ok [1]])) = false.
Proof. repeat split. Qed.

Example verify_honest_ex :
  let i := (OpVerify (repeat 0 32) [1] (repeat 7 64) true true, [(repeat 0 32, true)], []) in
  monitor i (model i) = true /\ monitor i (Ok (OBytes [Ok [0]])) = false /\ monitor i (Err 4) = false.
Proof. vm_compute. auto. Qed.

Definition k0 : bytes := repeat 0 32.
Definition ea_v6_scope : input :=
  (OpEaRt (mkEa k0 [Ip (V6 (repeat 0 15 ++ [1]) 80 0 5)]), [(k0, true)], []).
Definition ea_v6_flow : input :=
  (OpEaRt (mkEa k0 [Ip (V6 (repeat 0 15 ++ [1]) 80 7 0)]), [(k0, true)], []).
Definition ea_good : input :=
  (OpEaRt (mkEa k0 [Relay (str_bytes "https://example.com/"); Ip (V4 [127;0;0;1] 9);
                    Ip (V6 (repeat 0 15 ++ [1]) 443 0 0);
                    Custom (from_parts 5525330 (repeat 9 30)); Custom (from_parts 5525330 (repeat 9 31))]),
   [(k0, true)], [(str_bytes "https://example.com/", Ok (str_bytes "https://example.com/"))]).

(* the SocketAddrV6 finding: postcard keeps neither flow info nor scope id *)
Lemma ea_v6_refuted : exists i, known i = 1 /\ monitor i (model i) = false /\
  match i with (OpEaRt e, pts, urls) => wf_eaddr (is_point_of pts) (url_parse_of urls) e = true | _ => False end.
Proof. exists ea_v6_scope. vm_compute. auto. Qed.

Lemma ea_v6_flow_refuted : known ea_v6_flow = 1 /\ monitor ea_v6_flow (model ea_v6_flow) = false.
Proof. vm_compute. auto. Qed.

(* known = 0 is not vacuous: mixed addresses with a plain V6 survive *)
Example ea_good_roundtrip : known ea_good = 0 /\ monitor ea_good (model ea_good) = true /\
  match ea_good with (OpEaRt e, pts, urls) => wf_eaddr (is_point_of pts) (url_parse_of urls) e = true | _ => False end.
Proof. vm_compute. auto. Qed.

Example wf_endpoint_addr_ex :
  match ea_good with
  | (OpEaRt e, pts, urls) => wf_endpoint_addr (is_point_of pts) (url_parse_of urls) e
  | _ => False
  end.
Proof.
  split; [|split; [|split]].
  - vm_compute. repeat split.
  - apply Forall_forall. intros a Ha. apply andb_true_iff.
    revert a Ha. apply forallb_forall. vm_compute. reflexivity.
  - apply ascending_sorted. vm_compute. reflexivity.
  - vm_compute. discriminate.
Qed.

(* why the OpEaPostcard clause is guarded: on "bytes" that are not bytes, or a url table recording
   a panic of url::Url, the unguarded conclusion fails on the model's own output *)
Example ea_pc_guards_needed :
  let i1 : input := (OpEaPostcard (repeat 300 32 ++ [0]), [(repeat 300 32, true)], []) in
  let i2 : input := (OpEaPostcard (repeat 0 32 ++ [1;0;0]), [(repeat 0 32, true)], [([], Panic)]) in
  match model i1 with Ok (OEa e' [Ok _]) => wf_key (is_point_of (snd (fst i1))) (eid e') = false | _ => False end /\
  model i2 = Panic.
Proof. vm_compute. auto. Qed.
