(* C28 — proofs about the preferred-relay model.  get on the merged tables is best_of
   (get_best_recent); the selection loop picks a relay whose best_of is least (loop_spec); one
   call then satisfies call_spec (step_spec), which is exactly what the monitor's call_ok tests
   (call_ok_iff).  Two invariants of the stored history are kept apart: hist_wf, every stored set of
   tables is C27.wf, which step_spec needs, and hist_sorted, the entries ascend in time as in the
   BTreeMap, which only step_history needs. *)
From V Require Import Lib.Base Lib.Lists Lib.Trace Model.C27 Proofs.C27 Model.C28.
From V Require Import Lib.LiaBool.
Import C27. Import C28.
Open Scope N_scope.

Definition hist_wf (h : hist) : Prop := Forall (fun e => C27.wf (snd e)) h.

Lemma lat_of_meas_wf m : wf (lat_of_meas m).
Proof.
  unfold lat_of_meas. apply fold_left_inv; [|exact lat_default_wf].
  intros l [[k u] d] Hl. destruct (k <=? 2); auto using update_relay_wf.
Qed.

Lemma hist_prune_wf h now : hist_wf h -> hist_wf (hist_prune h now).
Proof. apply incl_Forall, incl_filter. Qed.

Lemma hist_insert_wf h : forall t l, hist_wf h -> wf l -> hist_wf (hist_insert h t l).
Proof.
  induction h as [|[t' l'] h IH]; intros t l Hh Hl; cbn [hist_insert].
  - constructor; [exact Hl|constructor].
  - inversion Hh; subst. destruct (t <? t'); [constructor; auto|].
    destruct (t =? t'); constructor; auto. apply IH; auto.
Qed.

Lemma get_is_list_min l u : C27.get l u = C27.list_min (lat_values l u).
Proof. reflexivity. Qed.

Lemma fold_merge_wf (h : hist) a : wf a -> wf (fold_left (fun acc e => C27.merge acc (snd e)) h a).
Proof. apply fold_left_inv. intros. now apply merge_wf. Qed.

Lemma get_fold_merge h u : forall a, hist_wf h -> wf a ->
  C27.get (fold_left (fun acc e => C27.merge acc (snd e)) h a) u =
  C27.opt_min (C27.get a u) (C27.list_min (concat (map (fun e => lat_values (snd e) u) h))).
Proof.
  induction h as [|e h IH]; intros a Hh Ha; cbn [fold_left map concat].
  - cbn. now rewrite opt_min_none_r.
  - inversion Hh; subst. rewrite IH by auto using merge_wf.
    rewrite get_merge by auto. rewrite list_min_app, <- get_is_list_min. apply opt_min_assoc.
Qed.

Lemma get_best_recent h now cur u : hist_wf h -> wf cur ->
  C27.get (best_recent h now cur) u = best_of h now cur u.
Proof.
  intros Hh Hc. unfold best_recent, best_of.
  rewrite get_merge by (exact Hc || apply fold_merge_wf, lat_default_wf).
  rewrite get_fold_merge by (exact lat_default_wf || now apply hist_prune_wf).
  now rewrite list_min_app.
Qed.

Lemma best_of_spec h now cur u m :
  best_of h now cur u = Some m <->
  let vals := concat (map (fun e => lat_values (snd e) u) (hist_prune h now)) ++ lat_values cur u in
  In m vals /\ forall y, In y vals -> m <= y.
Proof. unfold best_of. apply list_min_spec. Qed.

Lemma best_of_measured h now cur u d :
  C27.get cur u = Some d -> exists m, best_of h now cur u = Some m /\ m <= d.
Proof.
  intros E. unfold best_of. rewrite list_min_app, <- get_is_list_min, E.
  destruct (C27.list_min (concat _)); eexists; (split; [reflexivity|lia]).
Qed.

Lemma measured_get cur u : In u (measured cur) <-> exists d, C27.get cur u = Some d.
Proof.
  unfold measured, iter_lat. rewrite !map_app, !in_app_iff, !lookup_some, get_spec, !opt_min_some.
  reflexivity.
Qed.

Section Loop.
Variables (prev_relay : option N) (br : C27.latencies).

Definition chosen (items : list (N * N)) (ba : N) (p : option N) : Prop :=
  match p with
  | None => items = []
  | Some x => In x (map fst items) /\ C27.get br x = Some ba /\
              forall u, In u (map fst items) -> exists b, C27.get br u = Some b /\ ba <= b
  end.

Lemma loop_spec oc0 items :
  (forall ud, In ud items -> C27.get br (fst ud) <> None) ->
  exists ba p, fold_left (loop_step false prev_relay br) items (0, oc0, None) = (ba, oc0, p) /\
               chosen items ba p.
Proof.
  induction items as [|ud items IH] using rev_ind; intros Hs.
  - exists 0, None. split; reflexivity.
  - destruct IH as (ba & p & E & Hp); [intros x Hx; apply Hs, in_or_app; now left|].
    rewrite fold_left_app, E. cbn [fold_left]. unfold loop_step. cbn [andb].
    destruct (C27.get br (fst ud)) as [b|] eqn:Eg;
      [|destruct (Hs ud); [apply in_or_app; right; now left|exact Eg]].
    destruct (is_none p || (b <? ba)) eqn:Ec; eexists _, _; (split; [reflexivity|]).
    + (* ud is the first item, or strictly better than the choice so far *)
      cbn [chosen]. rewrite map_app. split; [apply in_or_app; right; now left|]. split; [exact Eg|].
      intros u [Hu|[<-|[]]]%in_app_or; [|exists b; split; [exact Eg|apply N.le_refl]].
      destruct p as [x|]; [|rewrite (Hp : items = []) in Hu; destruct Hu]. destruct Hp as (_ & _ & Hall).
      destruct (Hall u Hu) as (b' & Hb' & Hle). exists b'. split; [exact Hb'|].
      apply N.ltb_lt in Ec. lia.
    + destruct p as [x|]; [|discriminate]. destruct Hp as (Hin & Hg & Hall).
      cbn [chosen]. rewrite map_app. split; [apply in_or_app; now left|]. split; [exact Hg|].
      intros u [Hu|[<-|[]]]%in_app_or; [now apply Hall|]. exists b. split; [exact Eg|].
      apply N.ltb_ge, Ec.
Qed.
End Loop.

Definition call_spec (h : hist) (now : N) (cur : C27.latencies) (prev_relay p : option N) : Prop :=
  match p with
  | None => measured cur = []
  | Some x =>
      In x (measured cur) /\
      (Some x = prev_relay \/
       forall u, In u (measured cur) ->
         exists bx bu, best_of h now cur x = Some bx /\ best_of h now cur u = Some bu /\ bx <= bu) /\
      (forall q, prev_relay = Some q -> In q (measured cur) -> x <> q ->
         exists bx lowest, best_of h now cur x = Some bx /\
           C27.list_min (lat_values cur q) = Some lowest /\ bx <= lowest / 3 * 2)
  end.

Lemma opt_le_iff a b : opt_le a b = true <-> exists x y, a = Some x /\ b = Some y /\ x <= y.
Proof.
  split.
  - destruct a as [x|], b as [y|]; cbn; try discriminate. intros H%N.leb_le. exists x, y. auto.
  - intros (x & y & -> & -> & H). apply N.leb_le, H.
Qed.

Lemma call_ok_iff h now cur pr p : call_ok h now cur pr p = true <-> call_spec h now cur pr p.
Proof.
  unfold call_ok, call_spec. destruct p as [x|]; [|apply nil_iff].
  apply andb_assoc_iff. apply andb_iff; [apply existsb_eqb_in|]. apply andb_iff.
  - apply orb_iff; [apply opt_N_eqb_iff|]. apply forallb_iff; intros u. apply opt_le_iff.
  - apply some_iff; intros q. apply impb_and. apply impb_iff; [apply existsb_eqb_in|].
    apply impb_iff; [apply negb_iff, N.eqb_eq|].
    (* the walk of the stickiness test names the lowest latency first and the threshold as a number
       of its own; call_spec names the new best first and writes the threshold out *)
    eapply iff_trans; [apply some_ex_iff; intros l; apply opt_le_iff|]. split.
    + intros (l & El & bx & y & Ex & [= <-] & H). exists bx, l. auto.
    + intros (bx & l & Ex & El & H). exists l. split; [exact El|]. exists bx, (l / 3 * 2). auto.
Qed.

Lemma call_ok_sound h now cur pr p : call_ok h now cur pr p = true -> call_spec h now cur pr p.
Proof. apply call_ok_iff. Qed.

(* The preferred relay of the previous call.  step_gen and call_tag write this match inline, and
   [fold] shows it once they are unfolded. *)
Definition prev_relay_of (st : state) : option N :=
  match last st with Some l => pref l | None => None end.

Lemma step_state st now r :
  fst (step_gen false st now r) =
  mkSt (hist_insert (hist_prune (prev st) now) now (lat r)) (Some (snd (step_gen false st now r))).
Proof. unfold step_gen. destruct (fold_left _ _ _) as [[ba oc] p]. reflexivity. Qed.

Lemma step_spec st now r :
  hist_wf (prev st) -> wf (lat r) -> pref r = None ->
  call_spec (prev st) now (lat r) (prev_relay_of st) (pref (snd (step_gen false st now r))).
Proof.
  intros Hh Hc Hp. unfold step_gen. fold (prev_relay_of st). rewrite Hp.
  set (pr := prev_relay_of st). set (cur := lat r). set (h := prev st).
  set (br := best_recent h now cur). set (oc := old_init false pr cur).
  assert (Hbest : forall u, C27.get br u = best_of h now cur u)
    by (intros u; now apply get_best_recent).
  destruct (loop_spec pr br oc (iter_lat cur)) as (ba & p & -> & Hsel).
  { intros ud Hud. apply (in_map fst), measured_get in Hud as (d & E).
    destruct (best_of_measured h now cur _ _ E) as (m & Em & _). rewrite Hbest, Em. discriminate. }
  cbn [snd pref].
  destruct (negb (is_none pr) && negb (opt_eqb N.eqb p pr) && negb (oc =? 0) && (oc / 3 * 2 <? ba)) eqn:R.
  - (* reverted to the previous relay q: old_cur <> 0, so q is measured in this report *)
    destruct pr as [q|]; [|discriminate].
    assert (Hq : In q (measured cur)).
    { apply measured_get. unfold oc, old_init in R.
      destruct (C27.get cur q) as [d|]; [eauto|]. cbn in R. rewrite andb_false_r in R. discriminate R. }
    split; [exact Hq|]. split; [now left|]. intros q' [= <-] _ Hne. now destruct Hne.
  - destruct p as [x|]; [|unfold call_spec, measured; now rewrite (Hsel : iter_lat cur = [])].
    destruct Hsel as (Hin & Hg & Hall). split; [exact Hin|]. split.
    + right. intros u Hu. destruct (Hall u Hu) as (b & Hb & Hle). exists ba, b. rewrite <- !Hbest. exact (conj Hg (conj Hb Hle)).
    + intros q Epr Hq Hne. destruct (proj1 (measured_get cur q) Hq) as (lowest & Eq).
      exists ba, lowest. rewrite <- Hbest, <- get_is_list_min. split; [exact Hg|]. split; [exact Eq|].
      (* q's recent best lies between ba and lowest, which settles lowest = 0 *)
      destruct (Hall q Hq) as (bq & Hbq & Hle).
      destruct (best_of_measured h now cur q lowest Eq) as (m & Em & Hm).
      rewrite Hbest, Em in Hbq. injection Hbq as ->.
      unfold oc, old_init in R. rewrite Epr, Eq in R. cbn [is_none negb andb opt_eqb] in R.
      rewrite (proj2 (N.eqb_neq x q) Hne) in R.
      destruct (N.eqb_spec lowest 0) as [Ez|_]; [|apply N.ltb_ge, R].
      clear R. subst lowest. change (0 / 3 * 2) with 0. lia.
Qed.

Lemma preferred_is_measured_or_none st now r :
  hist_wf (prev st) -> wf (lat r) -> pref r = None ->
  match pref (snd (step_gen false st now r)) with
  | None => measured (lat r) = []
  | Some x => In x (measured (lat r))
  end.
Proof.
  intros H1 H2 H3. pose proof (step_spec st now r H1 H2 H3) as S. unfold call_spec in S.
  destruct (pref (snd (step_gen false st now r))); [apply S|exact S].
Qed.

Lemma preferred_minimises_recent_best st now r x :
  hist_wf (prev st) -> wf (lat r) -> pref r = None ->
  pref (snd (step_gen false st now r)) = Some x ->
  Some x = prev_relay_of st \/
  forall u, In u (measured (lat r)) ->
    exists bx bu, best_of (prev st) now (lat r) x = Some bx /\
                  best_of (prev st) now (lat r) u = Some bu /\ bx <= bu.
Proof.
  intros H1 H2 H3 E. pose proof (step_spec st now r H1 H2 H3) as S. rewrite E in S. apply S.
Qed.

Lemma sticky st now r x q :
  hist_wf (prev st) -> wf (lat r) -> pref r = None ->
  prev_relay_of st = Some q -> In q (measured (lat r)) ->
  pref (snd (step_gen false st now r)) = Some x -> x <> q ->
  exists bx lowest, best_of (prev st) now (lat r) x = Some bx /\
    C27.list_min (lat_values (lat r) q) = Some lowest /\ bx <= lowest / 3 * 2.
Proof.
  intros H1 H2 H3 Hq Hin E Hne. pose proof (step_spec st now r H1 H2 H3) as S. rewrite E in S.
  destruct S as (_ & _ & S). now apply S.
Qed.

Lemma step_hist_wf st now r :
  hist_wf (prev st) -> wf (lat r) -> hist_wf (prev (fst (step_gen false st now r))).
Proof. intros. rewrite step_state. apply hist_insert_wf; [now apply hist_prune_wf|auto]. Qed.

Lemma run_monitor cs : forall st now,
  hist_wf (prev st) ->
  monitor_from (prev st) now (prev_relay_of st) cs (run_gen false st now cs) = true.
Proof.
  induction cs as [|c cs IH]; intros st now Hh; cbn [run_gen monitor_from]; [reflexivity|].
  set (r := mkR (lat_of_meas (meas c)) None (in4 c) (in6 c)).
  pose proof (proj2 (call_ok_iff _ _ _ _ _) (step_spec st (now + dt c) r Hh (lat_of_meas_wf _) eq_refl)) as Hok.
  pose proof (step_hist_wf st (now + dt c) r Hh (lat_of_meas_wf _)) as Hh'.
  pose proof (step_state st (now + dt c) r) as Hst.
  destruct (step_gen false st (now + dt c) r) as [st' r']. cbn [fst snd lat r] in *. subst st'.
  (* for a state of the form step_state gives, the history and the previous relay the monitor goes
     on with are those of the state, by computation *)
  cbn [monitor_from o_pref]. rewrite Hok. exact (IH _ _ Hh').
Qed.

Lemma model_monitor i : monitor i (model i) = true.
Proof. unfold monitor. apply (run_monitor i st_default 0). constructor. Qed.

Fixpoint hist_sorted (h : hist) : Prop :=
  match h with
  | [] => True
  | (t, _) :: r => (forall e, In e r -> t < fst e) /\ hist_sorted r
  end.

Lemma hist_prune_in h now e : In e (hist_prune h now) <-> In e h /\ now - fst e <= MAX_AGE.
Proof.
  unfold hist_prune. rewrite filter_In. unfold fresh. split; intros [H1 H2]; split; auto; lia.
Qed.

Lemma hist_prune_sorted h now : hist_sorted h -> hist_sorted (hist_prune h now).
Proof.
  induction h as [|[t l] h IH]; [auto|]. intros [Hlt Hs]. unfold hist_prune. cbn [filter].
  fold (hist_prune h now). destruct (fresh now (t, l)); [|auto].
  split; [|auto]. intros e He. apply hist_prune_in in He as [He _]. auto.
Qed.

Lemma hist_insert_in h : forall t l e, hist_sorted h ->
  (In e (hist_insert h t l) <-> e = (t, l) \/ (In e h /\ fst e <> t)).
Proof.
  induction h as [|[t' l'] h IH]; intros t l e Hs; cbn [hist_insert].
  - cbn. split; [intros [H|[]]; auto|intros [H|[[] _]]; auto].
  - destruct Hs as [Hlt Hs]. destruct (N.ltb_spec t t') as [L|L].
    + cbn [In]. split.
      * intros [H|[H|H]]; [left; auto|right; subst e; cbn; split; [auto|lia]|].
        right. split; [auto|]. specialize (Hlt e H). lia.
      * intros [H|[H _]]; [left; auto|right; exact H].
    + destruct (N.eqb_spec t t') as [<-|N].
      * cbn [In]. split.
        -- intros [H|H]; [left; auto|]. right. split; [auto|]. specialize (Hlt e H). lia.
        -- intros [H|[[H|H] Hne]]; [left; auto| |right; exact H]. subst e. cbn in Hne. congruence.
      * cbn [In]. rewrite IH by exact Hs. split.
        -- intros [H|[H|[H Hne]]]; [right; subst e; cbn; split; [auto|lia]|left; exact H|right; auto].
        -- intros [H|[[H|H] Hne]]; [right; left; exact H|left; exact H|right; right; auto].
Qed.

Lemma hist_insert_sorted h : forall t l, hist_sorted h -> hist_sorted (hist_insert h t l).
Proof.
  induction h as [|[t' l'] h IH]; intros t l Hs; cbn [hist_insert].
  - cbn. split; [intros e []|exact I].
  - pose proof Hs as Hs0. destruct Hs as [Hlt Hs]. destruct (N.ltb_spec t t') as [L|L].
    + split; [|exact Hs0]. intros e [<-|He]; [cbn; lia|]. specialize (Hlt e He). lia.
    + destruct (N.eqb_spec t t') as [<-|N].
      * split; [exact Hlt|exact Hs].
      * split; [|apply IH; exact Hs]. intros e He. apply hist_insert_in in He; [|exact Hs].
        destruct He as [->|[He _]]; [cbn; lia|auto].
Qed.

Lemma step_history st now r e :
  hist_sorted (prev st) ->
  hist_sorted (prev (fst (step_gen false st now r))) /\
  (In e (prev (fst (step_gen false st now r))) <->
   e = (now, lat r) \/ (In e (prev st) /\ now - fst e <= MAX_AGE /\ fst e <> now)).
Proof.
  intros Hs. rewrite step_state. cbn [prev]. split.
  - apply hist_insert_sorted, hist_prune_sorted, Hs.
  - rewrite hist_insert_in by (apply hist_prune_sorted, Hs). rewrite hist_prune_in, and_assoc. reflexivity.
Qed.

(* Against stickiness in model_orig: the previous relay 0 is measured at 30 (https) and 90 (ipv6);
   relay 1 at 25 > 30/3*2 = 20 is preferred all the same, the threshold being taken from the last
   probe kind iterated (90/3*2 = 60). *)
Definition witness : input :=
  [mkCall 1000000000 [(0, 0, 30); (0, 1, 100)] None None;
   mkCall 1000000000 [(0, 0, 30); (2, 0, 90); (0, 1, 25)] None None].

Lemma orig_refuted : exists i, monitor i (model_orig i) = false.
Proof. exists witness. vm_compute. reflexivity. Qed.

(* non-vacuity: on the witness the model sticks with relay 0; at the threshold 32/3*2 = 20,
   20 switches and 21 sticks *)
Example fixed_on_witness :
  map o_pref (run_gen false st_default 0 witness) = [Some 0; Some 0].
Proof. vm_compute. reflexivity. Qed.
Example boundary_switch :
  map o_pref (run_gen false st_default 0
    [mkCall 1 [(1, 0, 32); (1, 1, 100)] None None; mkCall 1 [(1, 0, 32); (1, 1, 20)] None None]) = [Some 0; Some 1].
Proof. vm_compute. reflexivity. Qed.
Example boundary_stick :
  map o_pref (run_gen false st_default 0
    [mkCall 1 [(1, 0, 32); (1, 1, 100)] None None; mkCall 1 [(1, 0, 32); (1, 1, 21)] None None]) = [Some 0; Some 0].
Proof. vm_compute. reflexivity. Qed.
