(* C30 — proofs.  Inv: while no publish is inside its loop every registered service holds
   last_data; pc_ok says what holds of each call in between.  Every step goes through one frame
   lemma, inv_frame.  Deadlock freedom needs of it only that every program counter is one of its
   call's function (the default clause of pc_ok), and the lock order. *)
From V Require Import Lib.Base Lib.Lists Lib.Trace Model.C30.
Import C30.
Open Scope N_scope.

Lemma addr_eqb_iff a b : addr_eqb a b = true <-> a = b.
Proof.
  eapply iff_trans; [apply andb_iff; [apply Bool.eqb_true_iff|apply N.eqb_eq]|].
  destruct a, b. cbn. split; [intros [-> ->]|intros [= -> ->]]; auto.
Qed.

Lemma data_eqb_iff a b : data_eqb a b = true <-> a = b.
Proof.
  eapply iff_trans; [apply andb_iff; [apply N.eqb_eq|apply list_eqb_iff, addr_eqb_iff]|].
  destruct a, b. cbn. split; [intros [-> ->]|intros [= -> ->]]; auto.
Qed.

Lemma last_recv_cons_eq x d l : last_recv x ((x, d) :: l) = Some d.
Proof. cbn. now rewrite N.eqb_refl. Qed.
Lemma last_recv_cons_neq x y d l : y <> x -> last_recv x ((y, d) :: l) = last_recv x l.
Proof. intros H. cbn. now rewrite (proj2 (N.eqb_neq y x) H). Qed.
Lemma last_recv_log_to_neq x y od l : y <> x -> last_recv x (log_to y od l) = last_recv x l.
Proof. intros H. destruct od; cbn [log_to]; [now apply last_recv_cons_neq|reflexivity]. Qed.

Lemma add_ids_in prog t x : nth_error prog t = Some (Add x) -> In x (add_ids prog).
Proof.
  revert t; induction prog as [|o prog IH]; intros [|t] H; cbn in *; try discriminate.
  - inversion H; subst. cbn. auto.
  - destruct o; cbn; eauto.
Qed.

Lemma add_unique prog t u x :
  NoDup (add_ids prog) -> nth_error prog t = Some (Add x) -> nth_error prog u = Some (Add x) -> t = u.
Proof.
  revert t u; induction prog as [|o prog IH]; intros [|t] [|u] Hn Ht Hu; cbn in *; try discriminate; auto.
  - inversion Ht; subst. cbn in Hn. inversion Hn; subst. apply add_ids_in in Hu. contradiction.
  - inversion Hu; subst. cbn in Hn. inversion Hn; subst. apply add_ids_in in Ht. contradiction.
  - f_equal. apply IH; auto. destruct o; cbn in Hn; auto. now inversion Hn.
Qed.

(* a publish inside its loop *)
Definition is_locked (p : pc) : bool := match p with PLocked _ _ => true | _ => false end.

Definition consistent (s : st) : Prop :=
  forall x, In x (svcs s) -> last_recv x (evlog s) = last s.

(* whoever holds last_data for writing is alone in holding it *)
Definition excl (l : list pc) : Prop :=
  forall t u pt pu, t <> u -> nth_error l t = Some pt -> nth_error l u = Some pu ->
    holdsLw pt = true -> holdsLw pu = false /\ holdsLr pu = false.

(* the program counters a call of each kind passes through *)
Definition typed (o : option op) (p : pc) : bool :=
  match o, p with
  | Some _, (Idle | Done) => true
  | Some (Publish _), (PFiltered _ | PLockedL _ | PLocked _ _ | PStored | PUnlockedS) => true
  | Some (Add _), (ARead | APushed) => true
  | _, _ => false
  end.

Definition pc_ok (svs : list N) (lst : option data) (log : list (N * data)) (o : option op) (p : pc) : Prop :=
  match p, o with
  (* a service whose add has not started was never given anything *)
  | Idle, Some (Add x) => ~ In x svs /\ last_recv x log = None
  (* between its read and its push, an add's service holds exactly last_data *)
  | ARead, Some (Add x) => ~ In x svs /\ last_recv x log = lst
  (* a publish inside its loop: served services hold its data, the others last_data *)
  | PLocked fd todo, Some (Publish _) =>
      NoDup todo /\ incl todo svs /\
      forall x, In x svs -> last_recv x log = if existsb (N.eqb x) todo then lst else Some fd
  (* elsewhere only that the call is at a program counter of its own function *)
  | _, _ => typed o p = true
  end.

Lemma pc_ok_typed svs lst log o p : pc_ok svs lst log o p -> typed o p = true.
Proof. destruct p, o as [[| |]|]; cbn; auto. Qed.

(* going from p to p' a call holds last_data only if it held it already or finds it free: of
   writers and readers to write it, of writers to read it *)
Definition locks_ok (s : st) (p p' : pc) : bool :=
  if holdsLw p' then holdsLw p || nobody holdsLw s && nobody holdsLr s
  else if holdsLr p' then holdsLr p || nobody holdsLw s
  else true.

Lemma nobody_spec h s : nobody h s = true -> forall t p, nth_error (pcs s) t = Some p -> h p = false.
Proof. intros H t p Hp. apply negb_true_iff. exact (proj1 (forallb_nth_iff _ _) H t p Hp). Qed.

Lemma nobody_intro h s : (forall t p, nth_error (pcs s) t = Some p -> h p = false) -> nobody h s = true.
Proof. intros H. apply forallb_nth_iff. intros t p Hp. apply negb_true_iff. eauto. Qed.

Lemma nobody_false h s : nobody h s = false -> exists t p, nth_error (pcs s) t = Some p /\ h p = true.
Proof. intros (t & p & Hp & Hh%negb_false_iff)%forallb_false_nth. eauto. Qed.

Lemma quiescent_nobody h s : (h Done = false) -> quiescent s = true -> nobody h s = true.
Proof.
  intros Hd Hq. apply nobody_intro. intros t p Hp.
  pose proof (proj1 (forallb_nth_iff _ _) Hq t p Hp) as Hdone.
  destruct p; try discriminate Hdone. exact Hd.
Qed.

Lemma excl_upd s t p p' :
  excl (pcs s) -> nth_error (pcs s) t = Some p -> locks_ok s p p' = true -> excl (upd t p' (pcs s)).
Proof.
  intros Hex Hp Hlk u v pu pv Hne Hu Hv Hw. unfold locks_ok in Hlk.
  apply nth_error_set_nth in Hu as [[-> ->]|[Nu Hu']], Hv as [[-> ->]|[Nv Hv']].
  - contradiction.
  - rewrite Hw in Hlk. apply orb_prop in Hlk as [Hpw|Hfree].
    + exact (Hex t v p pv Hne Hp Hv' Hpw).
    + apply andb_prop in Hfree as [Nw Nr]. split; eapply nobody_spec; eauto.
  - (* u holds last_data for writing, so it is not free and t holds no part of it at p *)
    destruct (Hex u t pu p Hne Hu' Hp Hw) as [Ew Er].
    assert (Nw : nobody holdsLw s = false).
    { destruct (nobody holdsLw s) eqn:E; [|reflexivity].
      rewrite (nobody_spec _ _ E u pu Hu') in Hw. discriminate. }
    rewrite Ew, Er, Nw in Hlk. clear -Hlk. now destruct (holdsLw p'), (holdsLr p').
  - exact (Hex u v pu pv Hne Hu' Hv' Hw).
Qed.

(* a call outside the loop keeps its clause when the services it may add keep theirs.  The first
   premise says that p is neither PLocked nor PStored, in the shape the callers know it:
   holdsLw p = false (by excl, or nobody holdsLw) or holdsSr p = false (nobody holdsSr) *)
Lemma pc_ok_frame svs lst log svs' lst' log' o p :
  holdsLw p && holdsSr p = false -> holdsLr p = false \/ lst' = lst ->
  (forall y, o = Some (Add y) -> ~ In y svs -> ~ In y svs' /\ last_recv y log' = last_recv y log) ->
  pc_ok svs lst log o p -> pc_ok svs' lst' log' o p.
Proof.
  intros Hl Hlst Hadd Hok.
  destruct p; try discriminate Hl; try exact Hok; destruct o as [[|y|]|]; try exact Hok.
  - destruct Hok as [Hy E]. destruct (Hadd y eq_refl Hy) as [Hy' E']. exact (conj Hy' (eq_trans E' E)).
  - destruct Hok as [Hy E]. destruct (Hadd y eq_refl Hy) as [Hy' E'].
    destruct Hlst as [[=]| ->]. exact (conj Hy' (eq_trans E' E)).
Qed.

Section Inv.
Variable f : N.
Variable prog : list op.
Hypothesis WF : wf prog = true.

Record Inv (s : st) : Prop := {
  I_nodup : NoDup (svcs s);
  I_excl : excl (pcs s);
  (* no publish is inside its loop: every registered service holds last_data *)
  I_cons : (forall t p, nth_error (pcs s) t = Some p -> is_locked p = false) -> consistent s;
  I_pc : forall t p, nth_error (pcs s) t = Some p ->
           pc_ok (svcs s) (last s) (evlog s) (nth_error prog t) p
}.

(* by excl nobody else is in the loop *)
Lemma writer_consistent s t p :
  Inv s -> nth_error (pcs s) t = Some p -> holdsLw p = true -> is_locked p = false -> consistent s.
Proof.
  intros HI Hp Hw Hl. apply (I_cons _ HI). intros u pu Hu.
  destruct (Nat.eq_dec u t) as [->|Ne]; [congruence|].
  destruct (I_excl _ HI t u p pu (not_eq_sym Ne) Hp Hu Hw) as [E _]. now destruct pu.
Qed.

(* frame lemma: call t goes from p to p'; its clause is established, those of the other calls
   are carried over *)
Lemma inv_frame s t o p p' svs' lst' log' :
  Inv s -> nth_error prog t = Some o -> nth_error (pcs s) t = Some p -> locks_ok s p p' = true ->
  NoDup svs' -> pc_ok svs' lst' log' (Some o) p' ->
  (forall u pu, u <> t -> nth_error (pcs s) u = Some pu ->
     pc_ok (svcs s) (last s) (evlog s) (nth_error prog u) pu -> pc_ok svs' lst' log' (nth_error prog u) pu) ->
  (is_locked p' = false -> (is_locked p = false -> consistent s) ->
     forall x, In x svs' -> last_recv x log' = lst') ->
  Inv (mkSt svs' lst' log' (upd t p' (pcs s))).
Proof.
  intros HI Ho Hp Hlk Hnd Hnew Hoth Hcons.
  constructor; unfold consistent in *; cbn [pcs svcs last evlog] in *.
  - exact Hnd.
  - eapply excl_upd; eauto. apply HI.
  - intros Hno. apply Hcons.
    + apply (Hno t). exact (nth_error_set_nth_same _ _ _ _ Hp).
    + intros Hl. apply (I_cons _ HI). intros u pu Hu.
      destruct (Nat.eq_dec u t) as [->|Ne]; [congruence|].
      apply (Hno u). now rewrite nth_error_set_nth_other.
  - intros u pu [[-> ->]|[Ne Hu']]%nth_error_set_nth.
    + now rewrite Ho.
    + exact (Hoth u pu Ne Hu' (I_pc _ HI u pu Hu')).
Qed.

Lemma inv_set_pc s t o p p' :
  Inv s -> nth_error prog t = Some o -> nth_error (pcs s) t = Some p -> locks_ok s p p' = true ->
  is_locked p = false -> pc_ok (svcs s) (last s) (evlog s) (Some o) p' ->
  Inv (set_pc s t p').
Proof.
  intros HI Ho Hp Hlk Hl Hnew. apply (inv_frame s t o p); auto; [apply HI|].
  intros _ Hc. exact (Hc Hl).
Qed.

Lemma step_inv s t s' : Inv s -> step f prog s t = Some s' -> Inv s'.
Proof.
  intros HI Hs. unfold step in Hs.
  destruct (nth_error prog t) as [o|] eqn:Hop; [|discriminate].
  destruct (nth_error (pcs s) t) as [p|] eqn:Hp; [|destruct o; discriminate].
  pose proof (I_pc _ HI t p Hp) as Hok. rewrite Hop in Hok.
  destruct o as [d|x|]; destruct p as [|fd|fd|fd [|x0 todo]| | | | |]; try discriminate Hs.
  - (* publish: filter *)
    injection Hs as <-. now apply (inv_set_pc s t _ _ _ HI Hop Hp).
  - (* publish: last_data.write() *)
    destruct (nobody holdsLw s && nobody holdsLr s) eqn:En; [|discriminate].
    injection Hs as <-. now apply (inv_set_pc s t _ _ _ HI Hop Hp).
  - (* publish: services.read() *)
    injection Hs as <-. apply (inv_set_pc s t _ _ _ HI Hop Hp); auto.
    split; [apply HI|]. split; [apply incl_refl|]. intros y Hy.
    rewrite (proj2 (existsb_eqb_in y _) Hy). now apply (writer_consistent s t _ HI Hp).
  - (* publish: last_data.replace *)
    injection Hs as <-. destruct Hok as (_ & _ & Hall).
    apply (inv_frame s t _ _ _ _ _ _ HI Hop Hp); [reflexivity|apply HI|reflexivity| |].
    + intros u pu Ne Hu. destruct (I_excl _ HI t u _ pu (not_eq_sym Ne) Hp Hu eq_refl) as [Ew Er].
      apply pc_ok_frame; [rewrite Ew; reflexivity|left; exact Er|].
      intros y _ Hy. split; [exact Hy|reflexivity].
    + intros _ _ y Hy. exact (Hall y Hy).
  - (* publish: service.publish(&data) *)
    injection Hs as <-. destruct Hok as (Hnd & Hincl & Hall).
    apply incl_cons_inv in Hincl as [Hx Hincl]. apply NoDup_cons_iff in Hnd as [Hxt Hnd].
    apply (inv_frame s t _ _ _ _ _ _ HI Hop Hp); [reflexivity|apply HI| | |discriminate].
    + split; [exact Hnd|]. split; [exact Hincl|]. intros y Hy.
      destruct (N.eq_dec x0 y) as [<-|Ne].
      * now rewrite last_recv_cons_eq, (proj2 (existsb_eqb_notin x0 todo) Hxt).
      * rewrite last_recv_cons_neq, (Hall y Hy) by exact Ne. cbn [existsb].
        now rewrite (proj2 (N.eqb_neq y x0)) by auto.
    + intros u pu Ne Hu. destruct (I_excl _ HI t u _ pu (not_eq_sym Ne) Hp Hu eq_refl) as [Ew _].
      apply pc_ok_frame; [rewrite Ew; reflexivity|right; reflexivity|].
      intros y _ Hy. split; [exact Hy|]. apply last_recv_cons_neq. intros ->. exact (Hy Hx).
  - (* publish: drop services guard *)
    injection Hs as <-. now apply (inv_set_pc s t _ _ _ HI Hop Hp).
  - (* publish: drop last_data guard *)
    injection Hs as <-. now apply (inv_set_pc s t _ _ _ HI Hop Hp).
  - (* add: last_data.read() + publish to the new service *)
    destruct (nobody holdsLw s) eqn:En; [|discriminate].
    injection Hs as <-. destruct Hok as [Hxs Hxl].
    apply (inv_frame s t _ _ _ _ _ _ HI Hop Hp); [exact En|apply HI| | |].
    + split; [exact Hxs|]. destruct (last s); [apply last_recv_cons_eq|exact Hxl].
    + intros u pu Ne Hu.
      apply pc_ok_frame; [rewrite (nobody_spec _ _ En u pu Hu); reflexivity|right; reflexivity|].
      intros y Ho' Hy. split; [exact Hy|]. apply last_recv_log_to_neq. intros ->.
      apply Ne. exact (add_unique _ _ _ _ (proj1 (nodupb_iff _) WF) Ho' Hop).
    + intros _ Hc y Hy. rewrite last_recv_log_to_neq by (intros ->; contradiction).
      now apply Hc.
  - (* add: services.write().push(service) *)
    destruct (nobody holdsSr s) eqn:En; [|discriminate].
    injection Hs as <-. destruct Hok as [Hxs Hxl].
    apply (inv_frame s t _ _ _ _ _ _ HI Hop Hp); [reflexivity|apply NoDup_snoc; [apply HI|exact Hxs]|reflexivity| |].
    + intros u pu Ne Hu.
      apply pc_ok_frame; [rewrite (nobody_spec _ _ En u pu Hu); apply andb_false_r|right; reflexivity|].
      intros y Ho' Hy. split; [|reflexivity]. intros H. apply in_app_iff in H as [H|[<-|[]]]; [exact (Hy H)|].
      apply Ne. exact (add_unique _ _ _ _ (proj1 (nodupb_iff _) WF) Ho' Hop).
    + intros _ Hc y Hy. apply in_app_iff in Hy as [Hy|[<-|[]]]; [now apply Hc|exact Hxl].
  - (* add: drop last_data guard *)
    injection Hs as <-. now apply (inv_set_pc s t _ _ _ HI Hop Hp).
  - (* clear *)
    destruct (nobody holdsSr s) eqn:En; [|discriminate].
    injection Hs as <-.
    apply (inv_frame s t _ _ _ _ _ _ HI Hop Hp); [reflexivity|constructor|reflexivity| |].
    + intros u pu _ Hu.
      apply pc_ok_frame; [rewrite (nobody_spec _ _ En u pu Hu); apply andb_false_r|right; reflexivity|].
      intros y _ _. split; [intros []|reflexivity].
    + intros _ _ y [].
Qed.

Lemma init_inv : Inv (init prog).
Proof.
  constructor.
  - constructor.
  - intros t u pt pu _ [-> _]%nth_error_map_const _ Hw. discriminate.
  - intros _ x [].
  - intros t p [-> [o ->]]%nth_error_map_const. destruct o; cbn; auto.
Qed.

Lemma reachable_inv sched s : run (step f prog) (init prog) sched = Some s -> Inv s.
Proof. exact (orun_inv (step f prog) Inv step_inv sched _ s init_inv). Qed.

Lemma inv_latest s : Inv s -> nobody holdsLw s = true -> consistent s.
Proof.
  intros HI Hn. apply (I_cons _ HI). intros t p Hp.
  pose proof (nobody_spec _ _ Hn t p Hp). now destruct p.
Qed.

End Inv.

(* the locks are taken in the order last_data, services: a call that holds last_data, or finds
   it free, is not kept waiting *)
Lemma step_enabled f prog s t p :
  nth_error (pcs s) t = Some p -> typed (nth_error prog t) p = true -> is_done p = false ->
  (holdsLw p = false -> nobody holdsLw s = true /\ (holdsLr p = false -> nobody holdsLr s = true)) ->
  exists s', step f prog s t = Some s'.
Proof.
  intros Hp Hok Hnd Hfree.
  destruct (nth_error prog t) as [o|] eqn:Ho; [|discriminate].
  assert (Hs : nobody holdsLw s = true -> nobody holdsSr s = true).
  { intros Hw. apply nobody_intro. intros u pu Hu. apply (nobody_spec _ _ Hw) in Hu. now destruct pu. }
  unfold step. rewrite Ho, Hp.
  (* typing and is_done leave the eleven cases of step; one that asks for no lock is there by
     computation, the others have their tests answered by Hfree, and by Hs for the services lock *)
  destruct o, p as [| | |? [|]| | | | |]; try discriminate Hok; try discriminate Hnd; try (eexists; reflexivity);
    destruct (Hfree eq_refl) as [Hw Hr]; rewrite ?Hw, ?(Hs Hw); try rewrite (Hr eq_refl); eexists; reflexivity.
Qed.

Lemma progress f prog s :
  (forall t p, nth_error (pcs s) t = Some p -> typed (nth_error prog t) p = true) ->
  quiescent s = false -> exists t s', step f prog s t = Some s'.
Proof.
  intros HT Hq.
  destruct (nobody holdsLw s) eqn:Ew.
  2:{ apply nobody_false in Ew as (t & p & Hp & Hh).
      exists t. apply (step_enabled f prog s t p Hp (HT t p Hp)); [now destruct p|congruence]. }
  destruct (nobody holdsLr s) eqn:Er.
  2:{ apply nobody_false in Er as (t & p & Hp & Hh).
      exists t. apply (step_enabled f prog s t p Hp (HT t p Hp)); [now destruct p|split; [exact Ew|congruence]]. }
  apply forallb_false_nth in Hq as (t & p & Hp & Hnd).
  exists t. apply (step_enabled f prog s t p Hp (HT t p Hp)); auto.
Qed.

Lemma adv_run stepf fuel : forall s t s' b, adv stepf fuel s t = (s', b) ->
  exists sched, run stepf s sched = Some s'.
Proof.
  induction fuel as [|k IH]; intros s t s' b H; cbn in H.
  - inversion H; subst. now exists [].
  - destruct (stepf s t) as [s1|] eqn:E.
    + destruct (stops (pc_of s1 t)).
      * inversion H; subst. exists [t]. cbn. now rewrite E.
      * apply IH in H as [sched Hs]. exists (t :: sched). cbn. now rewrite E.
    + inversion H; subst. now exists [].
Qed.

Lemma run_ev_run stepf evs : forall s s', run_ev stepf s evs = Some s' ->
  exists sched, run stepf s sched = Some s'.
Proof.
  induction evs as [|e r IH]; intros s s' H; cbn [run_ev] in H.
  - inversion H; subst. now exists [].
  - assert (Hadv : exists s1 b, adv stepf 4 s (ev_thread e) = (s1, b) /\ run_ev stepf s1 r = Some s').
    { destruct e as [t|t]; cbn [ev_thread]; [|destruct (is_done (pc_of s t)); [discriminate|]];
        destruct (adv stepf 4 s t) as [s1 [|]]; try discriminate; eauto. }
    destruct Hadv as (s1 & b & E & H1). apply adv_run in E as [l1 E]. apply IH in H1 as [l2 H1].
    exists (l1 ++ l2). change (run stepf) with (orun stepf) in *. now rewrite orun_app, E.
Qed.

Theorem lock_free_latest f prog sched s :
  wf prog = true ->
  run (step f prog) (init prog) sched = Some s ->
  nobody holdsLw s = true ->
  forall x, In x (svcs s) -> last_recv x (evlog s) = last s.
Proof. intros Hwf Hr. exact (inv_latest prog s (reachable_inv f prog Hwf sched s Hr)). Qed.

Theorem all_services_latest f prog sched s :
  wf prog = true ->
  run (step f prog) (init prog) sched = Some s ->
  quiescent s = true ->
  forall x, In x (svcs s) -> last_recv x (evlog s) = last s.
Proof.
  intros Hwf Hr Hq. apply (lock_free_latest f prog sched s Hwf Hr). now apply quiescent_nobody.
Qed.

Theorem critical_sections_exclusive f prog sched s t u pt pu :
  wf prog = true ->
  run (step f prog) (init prog) sched = Some s ->
  t <> u -> nth_error (pcs s) t = Some pt -> nth_error (pcs s) u = Some pu ->
  holdsLw pt = true -> holdsLw pu = false /\ holdsLr pu = false.
Proof. intros Hwf Hr. exact (I_excl prog s (reachable_inv f prog Hwf sched s Hr) t u pt pu). Qed.

Theorem no_deadlock f prog sched s :
  wf prog = true ->
  run (step f prog) (init prog) sched = Some s ->
  quiescent s = false ->
  exists t s', step f prog s t = Some s'.
Proof.
  intros Hwf Hr. apply progress. intros t p Hp.
  exact (pc_ok_typed _ _ _ _ _ (I_pc prog s (reachable_inv f prog Hwf sched s Hr) t p Hp)).
Qed.

Lemma all_latest_spec svs lst log :
  all_latest svs lst log = true <-> forall x, In x svs -> last_recv x log = lst.
Proof. apply forallb_iff. intros x. apply opt_eqb_iff, data_eqb_iff. Qed.

Theorem monitor_spec f prog evs log svs lst :
  wf prog = true ->
  (monitor (f, prog, evs) (Some (log, svs, lst)) = true <->
   forall x, In x svs -> last_recv x (rev log) = lst).
Proof. intros Hwf. unfold monitor. rewrite Hwf. cbn [negb]. apply all_latest_spec. Qed.

Theorem model_monitor : forall i, monitor i (model i) = true.
Proof.
  intros [[f prog] evs]. unfold monitor, model, model_with.
  destruct (wf prog) eqn:Hwf; [cbn [negb]|reflexivity].
  destruct (run_ev (step f prog) (init prog) evs) as [s|] eqn:Hr; [|reflexivity].
  destruct (quiescent s) eqn:Hq; [|reflexivity].
  unfold observe. rewrite rev_involutive. apply all_latest_spec.
  apply run_ev_run in Hr as [sched Hs]. eapply all_services_latest; eauto.
Qed.

Definition d10 : data := (10, [(true, 1); (false, 1)]).
Definition d11 : data := (11, [(true, 2); (false, 2)]).
Definition d12 : data := (12, [(true, 3)]).

(* Old.step: add(2) reads d10; publish(d11) runs completely; add pushes: service 2 is left
   with d10 *)
Theorem old_add_race :
  exists prog sched s, wf prog = true /\
    run (Old.step 0 prog) (init prog) sched = Some s /\ quiescent s = true /\
    all_latest (svcs s) (last s) (evlog s) = false.
Proof.
  exists [Add 1; Publish d10; Publish d11; Add 2],
         [0; 0; 1; 1; 1; 1; 1; 3; 2; 2; 2; 2; 2; 3]%nat.
  eexists. split; [reflexivity|]. split; [vm_compute; reflexivity|]. split; reflexivity.
Qed.

(* Old.step: two publishes both hold the services read lock: service 1 ends with d12, last_data
   with d11 *)
Theorem old_publish_race :
  exists prog sched s, wf prog = true /\
    run (Old.step 0 prog) (init prog) sched = Some s /\ quiescent s = true /\
    all_latest (svcs s) (last s) (evlog s) = false.
Proof.
  exists [Add 1; Publish d11; Publish d12],
         [0; 0; 1; 1; 2; 2; 1; 2; 2; 2; 1; 1]%nat.
  eexists. split; [reflexivity|]. split; [vm_compute; reflexivity|]. split; reflexivity.
Qed.

(* under step the add race is disabled: add(2) keeps its read guard on last_data until it has
   pushed, so the write() of publish(d11) waits *)
Example new_add_race_blocked :
  run (step 0 [Add 1; Publish d10; Publish d11; Add 2])
      (init [Add 1; Publish d10; Publish d11; Add 2])
      [0; 0; 0; 1; 1; 1; 1; 1; 1; 1; 3; 2; 2]%nat = None.
Proof. vm_compute. reflexivity. Qed.

(* non-vacuity: a reachable quiescent state with two services and a filtered publish stored *)
Example reachable_nontrivial :
  exists s, run (step 2 [Add 1; Publish d10; Publish d11; Add 2])
                (init [Add 1; Publish d10; Publish d11; Add 2])
                [0; 0; 0; 1; 1; 1; 1; 1; 1; 1; 3; 3; 3; 2; 2; 2; 2; 2; 2; 2; 2]%nat = Some s /\
            quiescent s = true /\ svcs s = [1; 2] /\ last s = Some (11, [(true, 2)]).
Proof. eexists. split; [vm_compute; reflexivity|]. repeat split. Qed.
