(* C34 — add_jitter never panics and stays within 20 % of the delay; stagger_result returns the first
   success, else all errors; the calls and the result of the timed model pass the monitor. *)
From V Require Import Lib.Base Lib.MachineInt Lib.Lists Gen.Consts Model.C34.
From Coq Require Import Sorted.
From V Require Lib.Sorting.
From V Require Import Lib.LiaBool.
Import C34.
Open Scope N_scope.

Lemma jitter_zero r : add_jitter 0 r = Ok 0.
Proof. reflexivity. Qed.

(* max_jitter 0 = 0, so the delay 0 needs no case of its own *)
Lemma add_jitter_eq d r :
  add_jitter d r =
  Ok (if max_jitter d =? 0 then d else N.min (d - max_jitter d / 2 + r mod max_jitter d) U64_MAX).
Proof.
  unfold add_jitter. destruct (N.eqb_spec d 0) as [->|_]; [reflexivity|].
  destruct (max_jitter d =? 0); reflexivity.
Qed.

Lemma jitter_ok d r : exists t, add_jitter d r = Ok t.
Proof. eexists. apply add_jitter_eq. Qed.

Lemma jitter_total d r : add_jitter d r <> Panic.
Proof. rewrite add_jitter_eq. discriminate. Qed.

Lemma max_jitter_facts d :
  100 * max_jitter d <= N.min (d * 40) U64_MAX /\ N.min (d * 40) U64_MAX < 100 * max_jitter d + 100.
Proof.
  unfold max_jitter, u64_sat_mul, MAX_JITTER_PERCENT, C34_MAX_JITTER_PERCENT.
  change (20 * 2) with 40. generalize (N.min (d * 40) U64_MAX). intros m.
  pose proof (N.div_mod m 100 ltac:(lia)) as E. pose proof (N.mod_lt m 100 ltac:(lia)) as L.
  (* [lia] is given quotient and remainder as variables, with the equation and the bound that define them *)
  generalize dependent (m / 100). generalize dependent (m mod 100). intros. lia.
Qed.

(* +/- 20 %, saturation included: half of max_jitter is at most d / 5, and what is added is
   less than the other half plus one *)
Lemma jitter_bounds d r t :
  d <= U64_MAX -> add_jitter d r = Ok t ->
  4 * d <= 5 * t /\ 5 * t <= 6 * d /\ t <= U64_MAX.
Proof.
  intros Hd H. rewrite add_jitter_eq in H. injection H as <-.
  destruct (N.eqb_spec (max_jitter d) 0) as [_|Hq]; [lia|].
  pose proof (max_jitter_facts d) as [F _].
  pose proof (N.mod_lt r (max_jitter d) Hq) as L.
  pose proof (N.div_mod (max_jitter d) 2 ltac:(lia)) as E.
  pose proof (N.mod_lt (max_jitter d) 2 ltac:(lia)) as L2.
  generalize dependent (r mod max_jitter d). generalize dependent (max_jitter d / 2).
  generalize dependent (max_jitter d mod 2). generalize dependent (max_jitter d). intros. lia.
Qed.

Lemma jitter_within_pct d r t :
  d <= U64_MAX -> add_jitter d r = Ok t -> within_pct d t = true.
Proof.
  intros Hd H. destruct (jitter_bounds d r t Hd H) as (A & B & _).
  unfold within_pct, MAX_JITTER_PERCENT, C34_MAX_JITTER_PERCENT. lia.
Qed.

(* the delays on which iroh panicked before the fix (rand % 0) *)
Lemma jitter_small d r : 1 <= d <= 2 -> add_jitter d r = Ok d.
Proof.
  intros H. assert (d = 1 \/ d = 2) as [-> | ->] by lia; reflexivity.
Qed.

Lemma max_jitter_zero_iff d : d <= U64_MAX -> (max_jitter d = 0 <-> d <= 2).
Proof.
  intros _. pose proof (max_jitter_facts d) as [F1 F2].
  assert (100 <= U64_MAX) by discriminate. lia.
Qed.

Lemma admissible_iff d t :
  d <= U64_MAX -> (admissible d (Ok t) = true <-> exists r, add_jitter d r = Ok t).
Proof.
  intros Hd. unfold admissible, u64_sat_sub. set (q := max_jitter d). set (b := d - q / 2). split.
  - intros H. apply andb_prop in H as [H _]. apply andb_prop in H as [_ H].
    exists (t - b). destruct (add_jitter d (t - b)) as [x| |]; try discriminate H.
    apply N.eqb_eq in H. now subst.
  - intros [r H]. rewrite add_jitter_eq in H. injection H as Ht.
    rewrite add_jitter_eq. fold q b in Ht |- *. cbn [res_eqb].
    assert (Hbd : b <= d) by apply N.le_sub_l.
    revert Ht. destruct (N.eqb_spec q 0) as [Hz|Hq]; intros Ht; [lia|].
    pose proof (N.mod_lt r q Hq) as L.
    assert (Hr : t - b < q) by (generalize dependent (r mod q); intros; lia).
    rewrite (N.mod_small _ _ Hr). generalize dependent (r mod q). intros. lia.
Qed.

Lemma model_monitor_J d k rs : monitor (J d k) (model (J d k) rs) = true.
Proof.
  unfold monitor. cbn [wf]. destruct (N.leb_spec d U64_MAX) as [Hd|Hd]; [|reflexivity]. cbn [negb model].
  apply forallb_forall. intros x Hx. apply in_map_iff in Hx as (r & <- & _).
  destruct (jitter_ok d r) as [t Ht]. rewrite Ht. now apply (jitter_within_pct d r).
Qed.

Example jitter_300 : add_jitter 300 77 = Ok 317.
Proof. vm_compute. reflexivity. Qed.
Example jitter_saturates : add_jitter U64_MAX 184467440737095515 = Ok U64_MAX.
Proof. vm_compute. reflexivity. Qed.
Example jitter_one : add_jitter 1 12345 = Ok 1.
Proof. vm_compute. reflexivity. Qed.

Definition is_err (o : outcome) : Prop := exists e, o = Err e.

Lemma first_ok_wins outs v :
  stagger_result outs = SOk v <->
  exists pre post, outs = pre ++ Ok v :: post /\ Forall is_err pre.
Proof.
  split.
  - revert v. induction outs as [|o outs IH]; intros v H; cbn in H; [discriminate|].
    destruct o as [w|e|].
    + injection H as <-. exists [], outs. split; [reflexivity|constructor].
    + destruct (stagger_result outs) as [w|es|] eqn:E; try discriminate.
      injection H as <-. destruct (IH w eq_refl) as (pre & post & -> & Hp).
      exists (Err e :: pre), post. split; [reflexivity|]. constructor; [now exists e|exact Hp].
    + discriminate.
  - intros (pre & post & -> & Hp). induction Hp as [|o pre [e ->] Hp IH]; cbn; [reflexivity|].
    now rewrite IH.
Qed.

Lemma all_errors_collected outs es :
  stagger_result outs = SErr es <-> outs = map Err es.
Proof.
  split.
  - revert es. induction outs as [|o outs IH]; intros es H; cbn in H.
    + injection H as <-. reflexivity.
    + destruct o as [w|e|]; try discriminate.
      destruct (stagger_result outs) as [w|es'|] eqn:E; try discriminate.
      injection H as <-. cbn. f_equal. now apply IH.
  - intros ->. induction es as [|e es IH]; cbn; [reflexivity|]. now rewrite IH.
Qed.

Lemma stagger_result_decided outs :
  Forall (fun o => o <> Panic) outs ->
  (exists v, stagger_result outs = SOk v) \/ (exists es, stagger_result outs = SErr es).
Proof.
  induction 1 as [|o outs Ho _ IH]; cbn; [right; eauto|].
  destruct o as [w|e|]; [left; eauto| |contradiction].
  destruct IH as [[v ->]|[es ->]]; [left|right]; eauto.
Qed.

Lemma insert_by_eq {A} (k : A -> N) x l : insert_by k x l = Sorting.insert (fun a b => k a <=? k b) x l.
Proof. induction l as [|y l IH]; [reflexivity|]. cbn. now rewrite IH. Qed.

Lemma sort_by_eq {A} (k : A -> N) l : sort_by k l = Sorting.sort (fun a b => k a <=? k b) l.
Proof. induction l as [|y l IH]; [reflexivity|]. cbn [Sorting.sort]. now rewrite <- IH, <- insert_by_eq. Qed.

Lemma sort_by_length {A} (k : A -> N) l : length (sort_by k l) = length l.
Proof. rewrite sort_by_eq. apply Sorting.sort_length. Qed.

Lemma sort_by_in {A} (k : A -> N) y l : In y (sort_by k l) <-> In y l.
Proof. rewrite sort_by_eq. apply Sorting.sort_in. Qed.

Lemma sort_by_sorted {A} (k : A -> N) l : StronglySorted (fun a b => k a <= k b) (sort_by k l).
Proof. rewrite sort_by_eq. apply Sorting.sort_sorted_rel; intros; lia. Qed.

Lemma sorted_iff l : sorted l = true <-> StronglySorted N.le l.
Proof.
  split.
  - intros H. apply Sorted_StronglySorted; [exact N.le_trans|].
    induction l as [|a l IH]; [constructor|]. destruct l as [|b l]; [repeat constructor|].
    apply andb_prop in H as [Hab H]. constructor; [exact (IH H)|]. constructor. now apply N.leb_le.
  - intros H%StronglySorted_Sorted. induction H as [|a l _ IH Ha]; [reflexivity|].
    destruct Ha as [|b l Hab]; [reflexivity|].
    apply andb_true_intro. split; [now apply N.leb_le|exact IH].
Qed.

Lemma filter_full {A} (p : A -> bool) l : length (filter p l) = length l -> filter p l = l.
Proof. intros H. apply filter_all, filter_length_all, H. Qed.

Lemma completions_length timeout ss : forall script, length (completions timeout ss script) = length ss.
Proof. induction ss as [|s ss IH]; intros script; cbn; [reflexivity|]. now rewrite IH. Qed.

Lemma completions_ge timeout ss : forall script e,
  In e (completions timeout ss script) -> exists s, In s ss /\ s <= fst e.
Proof.
  induction ss as [|s ss IH]; intros script e H; cbn in H; [destruct H|].
  destruct H as [<-|H].
  - exists s. split; [now left|cbn; lia].
  - destruct (IH _ _ H) as (s' & Hs & Hle). exists s'. split; [now right|exact Hle].
Qed.

(* the calls started by time D are a prefix of all calls; the others would complete after D *)
Lemma completions_split timeout D ss script :
  sorted ss = true ->
  exists rest, completions timeout ss script =
               completions timeout (filter (fun s => s <=? D) ss) script ++ rest /\
               forall e, In e rest -> D < fst e.
Proof.
  intros Hs%sorted_iff. revert script.
  induction Hs as [|s ss _ IH Hall]; intros script.
  - exists []. split; [reflexivity|]. intros e [].
  - rewrite Forall_forall in Hall. cbn [filter]. destruct (N.leb_spec s D) as [Hle|Hgt].
    + destruct (IH (tl script)) as (rest & E & Hr). exists rest. split; [|exact Hr].
      cbn [completions]. rewrite E. reflexivity.
    + rewrite filter_none.
      2:{ intros x Hx. specialize (Hall x Hx). lia. }
      exists (completions timeout (s :: ss) script). split; [reflexivity|].
      intros e He. apply completions_ge in He as (s' & [<-|Hin] & Hle); [lia|].
      specialize (Hall s' Hin). lia.
Qed.

Definition no_panic (l : list entry) : Prop := forall e, In e l -> snd e <> Panic.

Lemma completions_no_panic timeout ss : forall script,
  forallb (fun e => negb (is_panic (snd e))) script = true ->
  no_panic (completions timeout ss script).
Proof.
  induction ss as [|s ss IH]; intros script Hw e He; cbn in He; [destruct He|].
  destruct He as [<-|He].
  - cbn [snd]. unfold eff. destruct (fst (hd default_entry script) <=? timeout); [|discriminate].
    destruct script as [|[d0 o0] script]; cbn; [discriminate|].
    cbn in Hw. apply andb_prop in Hw as [Hw _]. intros E. subst o0. discriminate Hw.
  - eapply IH; [|exact He]. destruct script; [reflexivity|]. cbn in Hw. now apply andb_prop in Hw as [_ Hw].
Qed.

Definition earliest (cs : list entry) (T : N) (v : list N) : Prop :=
  In (T, Ok v) cs /\ forall c v', In (c, Ok v') cs -> T <= c.
Definition no_ok (cs : list entry) : Prop := forall c v, ~ In (c, Ok v) cs.

Lemma first_ok_time_spec cs :
  match first_ok_time cs with
  | Some T => exists v, earliest cs T v
  | None => no_ok cs
  end.
Proof.
  induction cs as [|[c o] cs IH]; cbn [first_ok_time]; [intros c v []|].
  destruct o as [w|e|].
  - destruct (first_ok_time cs) as [c'|].
    + destruct IH as (v & Hin & Hmin).
      assert (Hlow : forall c0 v0, In (c0, Ok v0) ((c, Ok w) :: cs) -> N.min c c' <= c0).
      { intros c0 v0 [[= <- <-]|Hin0]; [lia|]. specialize (Hmin _ _ Hin0). lia. }
      destruct (N.min_spec c c') as [[_ E]|[_ E]]; rewrite E in Hlow |- *.
      * exists w. split; [now left|exact Hlow].
      * exists v. split; [now right|exact Hlow].
    + exists w. split; [now left|]. intros c0 v0 [[= <- <-]|Hin0]; [lia|]. destruct (IH _ _ Hin0).
  - destruct (first_ok_time cs).
    + destruct IH as (v & Hin & Hmin). exists v. split; [now right|]. intros c0 v0 [[=]|Hin0]. eauto.
    + intros c0 v0 [[=]|Hin0]. eapply IH; eauto.
  - destruct (first_ok_time cs).
    + destruct IH as (v & Hin & Hmin). exists v. split; [now right|]. intros c0 v0 [[=]|Hin0]. eauto.
    + intros c0 v0 [[=]|Hin0]. eapply IH; eauto.
Qed.

Lemma first_ok_time_earliest cs T v : earliest cs T v -> first_ok_time cs = Some T.
Proof.
  intros [Hin Hmin]. pose proof (first_ok_time_spec cs) as HS. destruct (first_ok_time cs) as [T'|].
  - destruct HS as (v' & Hin' & Hmin'). specialize (Hmin _ _ Hin'). specialize (Hmin' _ _ Hin). f_equal. lia.
  - destruct (HS _ _ Hin).
Qed.

Lemma first_ok_time_no_ok cs : no_ok cs -> first_ok_time cs = None.
Proof.
  intros H. pose proof (first_ok_time_spec cs) as HS. destruct (first_ok_time cs) as [T|]; [|reflexivity].
  destruct HS as (v & Hin & _). destruct (H _ _ Hin).
Qed.

Lemma decision_ok H cs T v : earliest cs T v -> T <= H -> decision_time H cs = T.
Proof. intros He HT. unfold decision_time. rewrite (first_ok_time_earliest cs T v He). lia. Qed.

Lemma decision_none H cs : (forall c v, In (c, Ok v) cs -> H < c) -> decision_time H cs = H.
Proof.
  intros Hno. unfold decision_time. pose proof (first_ok_time_spec cs) as HS.
  destruct (first_ok_time cs) as [T|]; [|reflexivity].
  destruct HS as (v & Hin & _). specialize (Hno _ _ Hin). lia.
Qed.

Lemma stagger_sorted l :
  StronglySorted (fun a b => fst a <= fst b) l -> no_panic l ->
  match stagger_result (map snd l) with
  | SOk w => exists c, earliest l c w
  | SErr es => es = map (fun e => err_code (snd e)) l /\ no_ok l
  | SPending => False
  end.
Proof.
  induction 1 as [|[c o] l _ IH Hall]; intros Hp; [split; [reflexivity|intros c v []]|].
  rewrite Forall_forall in Hall. specialize (IH (fun e He => Hp e (or_intror He))).
  cbn [map snd stagger_result].
  destruct o as [w|e|].
  - exists c. split; [now left|]. intros c' v' [[= <- _]|Hin]; [lia|exact (Hall _ Hin)].
  - destruct (stagger_result (map snd l)) as [w|es|]; [| |exact IH].
    + destruct IH as (c0 & Hin & Hmin). exists c0. split; [now right|]. intros c' v' [[=]|Hin']. eauto.
    + destruct IH as [-> Hno]. split; [reflexivity|]. intros c' v' [[=]|Hin']. eapply Hno; eauto.
  - destruct (Hp (c, Panic) (or_introl eq_refl) eq_refl).
Qed.

Lemma visible_in H (l : list entry) e :
  In e (filter (fun c => fst c <=? H) l) <-> In e l /\ fst e <= H.
Proof. now rewrite filter_In, N.leb_le. Qed.

Lemma visible_all H (l : list entry) :
  (forall e, In e l -> fst e <= H) -> filter (fun c => fst c <=? H) l = l.
Proof. intros Hall. apply filter_all, forallb_forall. intros e He. apply N.leb_le. auto. Qed.

Lemma timed_result_spec H cs : no_panic cs ->
  match timed_result H cs with
  | SOk w => exists T, T <= H /\ earliest cs T w
  | SErr es => es = map (fun e => err_code (snd e)) (sort_by fst cs) /\
               (forall e, In e cs -> fst e <= H) /\ no_ok cs
  | SPending => (forall c v, In (c, Ok v) cs -> H < c) /\ ~ (forall e, In e cs -> fst e <= H)
  end.
Proof.
  intros Hp. unfold timed_result. set (vis := filter (fun c => fst c <=? H) (sort_by fst cs)).
  assert (Hvis : forall e, In e vis <-> In e cs /\ fst e <= H).
  { intros e. unfold vis. now rewrite visible_in, sort_by_in. }
  pose proof (stagger_sorted vis (StronglySorted_filter _ _ _ (sort_by_sorted fst cs))
                (fun e He => Hp e (proj1 (proj1 (Hvis e) He)))) as HS.
  destruct (stagger_result (map snd vis)) as [w|es|]; [| |destruct HS].
  - destruct HS as (T & Hin & Hmin). apply Hvis in Hin as [Hin HT]. exists T.
    split; [exact HT|]. split; [exact Hin|]. intros c v Hc.
    destruct (N.le_gt_cases c H) as [Hle|Hgt]; [|cbn in HT; lia]. apply (Hmin c v), Hvis. now split.
  - destruct HS as [-> Hno].
    assert (Hok : forall c v, In (c, Ok v) cs -> H < c).
    { intros c v Hc. destruct (N.le_gt_cases c H); [|assumption]. destruct (Hno c v). apply Hvis. now split. }
    destruct (Nat.eqb_spec (length vis) (length cs)) as [E|E].
    + assert (Ev : vis = sort_by fst cs) by (apply filter_full; now rewrite sort_by_length).
      assert (Hall : forall e, In e cs -> fst e <= H).
      { intros e He. apply Hvis. rewrite Ev. now apply sort_by_in. }
      split; [now rewrite Ev|]. split; [exact Hall|].
      intros c v Hc. specialize (Hok c v Hc). specialize (Hall _ Hc). cbn in Hall. lia.
    + split; [exact Hok|]. intros Hall. apply E. unfold vis. rewrite visible_all; [apply sort_by_length|].
      intros e He. apply sort_by_in in He. auto.
Qed.

Lemma model_result_ok timeout H script ss :
  sorted ss = true ->
  forallb (fun e => negb (is_panic (snd e))) script = true ->
  let cs := completions timeout ss script in
  let D := decision_time H cs in
  result_ok timeout H (length ss) script (filter (fun s => s <=? D) ss) (timed_result H cs) = true.
Proof.
  intros Hs Hw cs D.
  destruct (completions_split timeout D ss script Hs) as (rest & Ecs & Hrest). fold cs in Ecs.
  set (calls := filter (fun s => s <=? D) ss) in *.
  unfold result_ok. set (called := completions timeout calls script) in *.
  assert (Hcalled : forall e, In e called -> In e cs) by (intros e He; rewrite Ecs; apply in_or_app; now left).
  set (vis := filter (fun c => fst c <=? H) called).
  assert (Hlen : length cs = length ss) by apply completions_length.
  assert (Hlc : length called = length calls) by apply completions_length.
  pose proof (visible_in H called) as Hvis. fold vis in Hvis.
  assert (Hcalls : forall X, D = X -> forallb (fun s => s <=? X) calls = true).
  { intros X <-. apply forallb_forall. intros s Hin. now apply filter_In in Hin as [_ Hin]. }
  pose proof (timed_result_spec H cs (completions_no_panic timeout ss script Hw)) as HT.
  unfold entry in *. destruct (timed_result H cs) as [w|es|].
  - (* a success visible by the horizon: the earliest one decides *)
    destruct HT as (T & HTH & Hin & Hmin).
    assert (HD : D = T) by exact (decision_ok H cs T w (conj Hin Hmin) HTH).
    assert (HinV : In (T, Ok w) vis).
    { apply Hvis. split; [|exact HTH]. rewrite Ecs in Hin. apply in_app_or in Hin as [Hin|Hin]; [exact Hin|].
      specialize (Hrest _ Hin). cbn in Hrest. lia. }
    rewrite (first_ok_time_earliest vis T w).
    2:{ split; [exact HinV|]. intros c v' Hc. apply Hvis in Hc as [Hc _]. eauto. }
    rewrite (Hcalls T HD). apply existsb_exists. exists (T, Ok w). split; [exact HinV|].
    cbn [fst snd andb res_eqb]. rewrite N.eqb_refl. apply list_eqb_refl, N.eqb_refl.
  - (* every attempt has failed by the horizon: all were called, all are visible *)
    destruct HT as (-> & Hall & Hno).
    assert (HD : D = H) by (apply decision_none; intros c v Hc; destruct (Hno c v Hc)).
    assert (Ec : called = cs).
    { destruct rest as [|e rest]; [now rewrite app_nil_r in Ecs|]. specialize (Hrest e (or_introl eq_refl)).
      specialize (Hall e ltac:(rewrite Ecs; apply in_or_app; right; now left)). lia. }
    assert (Ev : vis = cs) by (unfold vis; rewrite Ec; now apply visible_all).
    rewrite Ev, Ec, first_ok_time_no_ok by exact Hno.
    rewrite <- Hlc, Ec, map_length, sort_by_length, Hlen, !Nat.eqb_refl.
    cbn [andb]. rewrite combine_map_r, map_map. apply list_eqb_refl, N.eqb_refl.
  - (* undecided at the horizon *)
    destruct HT as [Hno Hsome].
    assert (HD : D = H) by (apply decision_none; exact Hno).
    rewrite first_ok_time_no_ok.
    2:{ intros c v Hc. apply Hvis in Hc as [Hc Hle]. apply Hcalled, Hno in Hc. cbn in Hle. lia. }
    destruct ((length calls =? length ss)%nat && (length vis =? length ss)%nat) eqn:Eall;
      [exfalso|exact (Hcalls H HD)].
    apply andb_prop in Eall as [E1 E2]. apply Nat.eqb_eq in E1. apply Nat.eqb_eq in E2.
    assert (Ec : calls = ss) by (apply filter_full; exact E1).
    assert (Ev : vis = called) by (apply filter_full; fold vis; congruence).
    apply Hsome. intros e He. apply Hvis. rewrite Ev. unfold called. rewrite Ec. auto.
Qed.

Lemma jitters_spec ds rs :
  exists starts, jitters ds rs = Ok starts /\ length starts = length ds /\
    forall s, In s starts -> exists d r, In d ds /\ add_jitter d r = Ok s.
Proof.
  revert rs. induction ds as [|d ds IH]; intros rs; cbn [jitters].
  - exists []. repeat split. intros s [].
  - destruct (jitter_ok d (hd 0 rs)) as [t Ht]. rewrite Ht.
    destruct (IH (tl rs)) as (l & -> & Hl & Hin).
    exists (t :: l). split; [reflexivity|]. split; [cbn; now rewrite Hl|].
    intros s [<-|Hs].
    + exists d, (hd 0 rs). split; [now left|exact Ht].
    + destruct (Hin s Hs) as (d' & r & Hd & Hr). exists d', r. split; [now right|exact Hr].
Qed.

Lemma starts_spec delays rs :
  exists st, jitters (0 :: delays) rs = Ok (0 :: st) /\ length st = length delays /\
    forall s, In s st -> exists d r, In d delays /\ add_jitter d r = Ok s.
Proof.
  cbn [jitters]. rewrite jitter_zero. destruct (jitters_spec delays (tl rs)) as (st & -> & Hl & Hin). eauto.
Qed.

Lemma starts_calls_ok D delays st :
  forallb (fun d => d <=? U64_MAX) delays = true -> length st = length delays ->
  (forall s, In s st -> exists d r, In d delays /\ add_jitter d r = Ok s) ->
  calls_ok (all_delays delays) (filter (fun s => s <=? D) (sort_by (fun y => y) (0 :: st))) = true.
Proof.
  intros Hwf Hlen Hin.
  unfold calls_ok. rewrite (proj2 (sorted_iff _)) by apply StronglySorted_filter, (sort_by_sorted (fun y => y)).
  (* 0 sorts to the front and is kept *)
  assert (Hhd : sort_by (fun y => y) (0 :: st) = 0 :: sort_by (fun y => y) st).
  { unfold sort_by. cbn [fold_right]. destruct (fold_right _ _ _) as [|b l]; [reflexivity|]. cbn [insert_by].
    destruct (N.leb_spec 0 b); [reflexivity|lia]. }
  rewrite Hhd. cbn [filter]. replace (0 <=? D) with true by lia.
  cbn [andb forallb]. rewrite N.eqb_refl, andb_true_r.
  apply andb_true_intro. split; [|apply andb_true_intro; split; [reflexivity|]].
  - apply Nat.leb_le. cbn [length all_delays].
    pose proof (filter_length_le (fun s => s <=? D) (sort_by (fun y => y) st)) as Hf.
    rewrite sort_by_length in Hf. lia.
  - apply forallb_forall. intros t Ht. apply filter_In in Ht as [Ht _]. apply sort_by_in, Hin in Ht.
    destruct Ht as (d & r & Hd & Hr). apply existsb_exists. exists d. split; [now right|].
    apply (jitter_within_pct d r t); [|exact Hr]. rewrite forallb_forall in Hwf. now apply N.leb_le, Hwf.
Qed.

Lemma model_calls_ok timeout H delays script rs :
  forallb (fun d => d <=? U64_MAX) delays = true ->
  exists calls sr, model_S timeout H delays script rs = Ok (calls, sr) /\
                   calls_ok (all_delays delays) calls = true.
Proof.
  intros Hwf. unfold model_S. destruct (starts_spec delays rs) as (st & -> & Hlen & Hin).
  eexists _, _. split; [reflexivity|]. now apply starts_calls_ok.
Qed.

Lemma model_monitor_S api timeout H delays script rs :
  monitor (S api timeout H delays script) (model (S api timeout H delays script) rs) = true.
Proof.
  unfold monitor. destruct (wf (S api timeout H delays script)) eqn:W; [|reflexivity]. cbn [negb].
  cbn [wf] in W. apply andb_prop in W as [W1 W2]. cbn [model]. unfold model_S.
  destruct (starts_spec delays rs) as (st & -> & Hlen & Hin). cbv zeta.
  rewrite starts_calls_ok by assumption. cbn [andb].
  replace (length (all_delays delays)) with (length (sort_by (fun x => x) (0 :: st)))
    by (rewrite sort_by_length; cbn; now rewrite Hlen).
  apply (model_result_ok timeout H script (sort_by (fun x => x) (0 :: st))); [|exact W2].
  apply sorted_iff, (sort_by_sorted (fun x => x)).
Qed.

Lemma model_monitor i rs : monitor i (model i rs) = true.
Proof. destruct i; [apply model_monitor_J|apply model_monitor_S]. Qed.

Example model_example :
  model (S 4 100 1000 [50; 2] [(100, Err 2); (10, Ok [7]); (10, Ok [8])]) [0; 5; 9]
  = OS (Ok ([0; 2], SOk [7])).
Proof. vm_compute. reflexivity. Qed.
