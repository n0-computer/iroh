(* C41: Router::shutdown returns only after the handlers' shutdown and the endpoint close.
   [inv] ties the completion token to the run loop's position and that to what a returning
   call reports; every step of [step true] keeps it. *)
From V Require Import Lib.Base Lib.Lists Lib.Trace Model.C41.
Import C41.
Open Scope N_scope.

(* the monitor's test of a caller's status, on the caller's program counter *)
Definition ret_ok (c : cpc) : bool := status_ok (status_of c).

Definition past_handlers (l : lpc) : bool :=
  match l with LHDone | LHCancelled | LEpClosed | LExited => true | _ => false end.
Definition past_close (l : lpc) : bool :=
  match l with LEpClosed | LExited => true | _ => false end.
Definition exited (l : lpc) : bool := match l with LExited => true | _ => false end.

Definition inv (s : st) : Prop :=
  (done s = true -> loop s = LExited) /\
  (past_handlers (loop s) = true -> hdone_obs s = true) /\
  (past_close (loop s) = true -> ep_closed s = true) /\
  forallb ret_ok (callers s) = true.

Lemma inv_init h n : inv (init h n).
Proof.
  unfold inv, init; cbn. repeat split; try discriminate. now apply forallb_repeat.
Qed.

Lemma ret_now_ok s : inv s -> loop s = LExited -> ret_ok (ret_now s) = true.
Proof.
  intros (_ & H2 & H3 & _) E. unfold ret_now; cbn. rewrite E in *.
  rewrite H2, H3 by reflexivity. reflexivity.
Qed.

Lemma inv_set_caller s i c : inv s -> ret_ok c = true -> inv (set_caller s i c).
Proof.
  intros (H1 & H2 & H3 & H4) Hc. repeat split; auto.
  (* the model's [set_nth] is the library's by conversion *)
  now apply forallb_set_nth.
Qed.

Lemma step_inv s e s' : inv s -> step true s e = Some s' -> inv s'.
Proof.
  intros I H. destruct e; cbn [step] in H.
  (* [LBreak] .. [LExit], the loop moves on: the callers stay as they are *)
  6-11: destruct (loop s) eqn:L; try discriminate H; try destruct (_ || _); try discriminate H;
    injection H as <-; destruct I as (H1 & H2 & H3 & H4); rewrite L in H1, H2, H3;
    repeat split; cbn; auto; try discriminate;
    intros D; discriminate (H1 D).
  (* what is left at 6 and 7 is [XClose] and [Gate]: the environment acts *)
  6-7: injection H as <-; destruct I as (H1 & H2 & H3 & H4); repeat split; auto.
  (* a caller moves ([inv] ignores the cancel token and the task slot); when it returns,
     the loop has exited *)
  - destruct (at_pc s i CNew), (cancelled s); try discriminate;
      injection H as <-; now apply inv_set_caller.
  - destruct (at_pc s i CChecked); [|discriminate]. injection H as <-. now apply inv_set_caller.
  - destruct (at_pc s i CCancelled), (task_present s); try discriminate;
      injection H as <-; now apply inv_set_caller.
  - destruct (at_pc s i CAwaiting), (loop s) eqn:L; try discriminate. injection H as <-.
    apply inv_set_caller, ret_now_ok; auto.
  - destruct (at_pc s i CWaiting), (done s) eqn:D; try discriminate. injection H as <-.
    apply inv_set_caller, ret_now_ok; auto. now apply I.
Qed.

Lemma run_orun fx tr : forall s, run fx s tr = orun (step fx) s tr.
Proof. induction tr as [|e r IH]; intros s; cbn; [reflexivity|]. now destruct (step fx s e). Qed.

(* whatever the interleaving of callers, run loop, an external endpoint close and the handlers'
   completion: a call that returned returned Ok, after the handlers' shutdown and the close *)
Lemma return_implies_done : forall h n tr s,
  run true (init h n) tr = Some s ->
  forall i ok hd ec, nth_error (callers s) i = Some (CRet ok hd ec) ->
    ok = true /\ hd = true /\ ec = true.
Proof.
  intros h n tr s R i ok hd ec Hn.
  rewrite run_orun in R.
  destruct (orun_inv _ inv step_inv tr _ _ (inv_init h n) R) as (_ & _ & _ & A).
  apply (proj1 (forallb_nth_iff _ _) A) in Hn. cbn in Hn.
  apply andb_prop in Hn as [[-> ->]%andb_prop ->]. auto.
Qed.

(* a waiting call can return once the run loop is through: the fix does not trade the defect
   for a hang *)
Lemma waiting_caller_can_return : forall s i,
  loop s = LExited -> done s = true ->
  (at_pc s i CWaiting = true -> exists s', step true s (CWaitDone i) = Some s') /\
  (at_pc s i CAwaiting = true -> exists s', step true s (CAwait i) = Some s').
Proof.
  intros s i L D. split; intros A; cbn [step]; rewrite A, ?D, ?L; cbn; eauto.
Qed.

Lemma exit_sets_done : forall s s', step true s LExit = Some s' -> done s' = true /\ loop s' = LExited.
Proof. intros s s'. cbn. destruct (loop s); try discriminate. now intros [= <-]. Qed.

(* two traces of the code before the fix *)
Definition old_witness_cancelled : list ev :=
  [CCheck 0; CCancel 0; CTake 0; LBreak; LHStart; CCheck 1].
Definition old_witness_taken : list ev :=
  [CCheck 0; CCheck 1; CCancel 1; CTake 1; LBreak; LHStart; CCancel 0; CTake 0].

Lemma old_code_refuted :
  (exists s, run false (init 1 2) old_witness_cancelled = Some s /\
             nth_error (callers s) 1 = Some (CRet true false false)) /\
  (exists s, run false (init 1 2) old_witness_taken = Some s /\
             nth_error (callers s) 0 = Some (CRet true false false)).
Proof. split; eexists; split; vm_compute; reflexivity. Qed.

(* on the fixed code the late caller waits *)
Example fixed_witness :
  exists s, run true (init 1 2) old_witness_cancelled = Some s /\
            nth_error (callers s) 1 = Some CWaiting.
Proof. eexists; split; vm_compute; reflexivity. Qed.

(* non-vacuity: a complete shutdown with two callers *)
Example fixed_complete :
  exists s, run true (init 2 2)
      [CCheck 0; CCancel 0; CTake 0; LBreak; LHStart; CCheck 1; Gate; LHFinish; LCancelH;
       LEpClose; LExit; CAwait 0; CWaitDone 1] = Some s /\
    callers s = [CRet true true true; CRet true true true].
Proof. eexists; split; vm_compute; reflexivity. Qed.

(* the script interpreter only takes steps of [step], so its states satisfy [inv] *)
Lemma inv_try s e : inv s -> inv (try_ev true s e).
Proof.
  intros I. unfold try_ev. destruct (step true s e) eqn:E; [exact (step_inv _ _ _ I E) | exact I].
Qed.

Lemma inv_action s a : inv s -> inv (do_action true s a).
Proof. intros I. unfold do_action, eager. apply fold_left_inv, fold_left_inv, I; exact inv_try. Qed.

Lemma inv_status_ok s : inv s -> forallb status_ok (map status_of (callers s)) = true.
Proof.
  intros (_ & _ & _ & A). apply forallb_forall. intros x (c & <- & Hc)%in_map_iff.
  exact (proj1 (forallb_forall _ _) A c Hc).
Qed.

Lemma interp_ok acts : forall s, inv s ->
  forallb (fun sn : snap => forallb status_ok (snd sn)) (interp true s acts) = true.
Proof.
  induction acts as [|a r IH]; intros s I; [reflexivity|]. apply (inv_action s a) in I.
  cbn [interp forallb]. rewrite (IH _ I). unfold snapshot; cbn [snd]. now rewrite inv_status_ok.
Qed.

Lemma model_monitor : forall i, monitor i (model i) = true.
Proof. intros [h acts]. apply interp_ok, inv_init. Qed.
