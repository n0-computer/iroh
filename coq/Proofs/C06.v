(* C06 — the relay registry model.  What a step does is read off two descriptions of [step]: the
   atomic updates an event can make to one connection ([cupd], lifted to any preorder on
   connections by [step_conn]) and the tables after it, left alone or not ([step_frame]).  [cupd]
   says what may happen to a connection; what must happen to a named one is said event by event
   ([step_own], [notify_head], [fold_cancel_conns], [enqueue_m_room]) and by the theorems about
   single events, which compute [step] on that event. *)
From V Require Import Lib.Base Lib.Lists Lib.Trace Model.C06.
From Coq Require Import Sorted FinFun.
From V Require Import Lib.LiaBool.
Import C06.
Open Scope N_scope.

Lemma fupd_same {A} (f : N -> A) k v : fupd f k v k = v.
Proof. unfold fupd. now rewrite N.eqb_refl. Qed.
Lemma fupd_other {A} (f : N -> A) k v x : x <> k -> fupd f k v x = f x.
Proof. unfold fupd. intros H. apply N.eqb_neq in H. now rewrite H. Qed.
Lemma fupd_if {A} (f : N -> A) k (g : A -> A) i : fupd f k (g (f k)) i = if i =? k then g (f i) else f i.
Proof. unfold fupd. destruct (i =? k) eqn:E; [apply N.eqb_eq in E; now subst|reflexivity]. Qed.

(* [revert s'. apply some_rel.] turns a goal [step .. = Some s' -> P s'] into a [match] on the step, in
   which the branches where the event is not enabled are [True] *)
Lemma some_rel {A} (P : A -> Prop) (o : option A) :
  match o with Some a => P a | None => True end -> forall a, o = Some a -> P a.
Proof. intros F a H. rewrite H in F. exact F. Qed.

Lemma some_ex {A} (P : A -> Prop) (o : option A) :
  match o with Some a => P a | None => False end -> exists a, o = Some a /\ P a.
Proof. destruct o as [a|]; [intros H; exists a; split; [reflexivity|exact H]|contradiction]. Qed.

Definition notgone (f : frame) : Prop := forall X, f <> FGone X.
Lemma status_notgone v k : notgone (status_frame v k).
Proof. intros X. unfold status_frame. destruct (v =? 1); discriminate. Qed.

(* the frames an event appends to message queues, and the connections whose token it may cancel *)
Definition notice (s : state) (e : event) (f : frame) : Prop :=
  match e with
  | Insert _ | Unregister _ => notgone f
  | Notify k => exists X p, nth_error (pending s) (N.to_nat k) = Some (X, p) /\ f = FGone X
  | _ => False
  end.

Definition cancels (s : state) (e : event) (c : N) : Prop :=
  match e with
  | Send _ d _ => exists rest, reg s d = c :: rest
  | Disconnect id o => In c (reg s id) /\ (o = None \/ o = Some c)
  | ShutStop c' => c = c'
  | _ => False
  end.

Definition fresh_conn (id v : N) : conn := mkConn id v Running false false false false [] [] [].

(* [cupd s e c x y]: e, taken in s, may turn connection c from x into y in one atomic update; a
   step is a sequence of these on every connection but the one a Spawn creates ([step_conn]) *)
Inductive cupd (s : state) : event -> N -> conn -> conn -> Prop :=
| cu_notice e c x f : notice s e f -> cupd s e c x (with_mq x (mq x ++ [f]))
| cu_data a d tg c x : cupd s (Send a d tg) c x (with_pq x (pq x ++ [FData (eid (conns s a)) tg]))
| cu_cancel e c x : cancels s e c -> cupd s e c x (with_cancelled x true)
| cu_close c x : cupd s (Close c) c x (with_closed x true)
| cu_insert c x : cupd s (Insert c) c x (with_inserted x true)
| cu_exit c x : is_running (cstate x) = true -> cupd s (Exit c) c x (with_cstate x Exited)
| cu_done c x : is_exited (cstate x) = true -> cupd s (Unregister c) c x (with_cstate x Done)
| cu_deliver_p c x f r : pq x = f :: r -> cupd s (Deliver c true) c x (with_pq_got x r (got x ++ [f]))
| cu_deliver_m c x f r : mq x = f :: r -> cupd s (Deliver c false) c x (with_mq_got x r (got x ++ [f]))
| cu_take id c x : In c (reg s id) -> cupd s (ShutTake id) c x (with_taken x true).

(* a disconnect request by endpoint id cancels exactly the connections of the entry *)
Lemma fold_cancel_conns l : forall s c,
  conns (fold_left cancel l s) c = if existsb (N.eqb c) l then with_cancelled (conns s c) true else conns s c.
Proof.
  induction l as [|b l IH]; intros s c; cbn [fold_left existsb]; [reflexivity|].
  rewrite IH. unfold cancel. cbn [conns set_conn]. unfold fupd.
  destruct (c =? b) eqn:E; cbn [orb]; [|reflexivity].
  apply N.eqb_eq in E. subst b. now destruct (existsb _ l).
Qed.

Section ConnRel.
Variable R : N -> conn -> conn -> Prop.
Hypothesis R_refl : forall c x, R c x x.

Lemma rel_set_conn t a y c : R a (conns t a) y -> R c (conns t c) (conns (set_conn t a y) c).
Proof.
  intros Hy. cbn. unfold fupd. destruct (c =? a) eqn:E; [|apply R_refl].
  apply N.eqb_eq in E. now subst.
Qed.

Lemma rel_enqueue_m t a f c :
  (forall x, R a x (with_mq x (mq x ++ [f]))) -> R c (conns t c) (conns (enqueue_m t a f) c).
Proof.
  intros Hf. unfold enqueue_m. destruct (is_done _); [apply R_refl|].
  destruct (_ <? _); [|apply R_refl]. apply rel_set_conn, Hf.
Qed.

Lemma rel_fold_cancel l t c : (In c l -> forall x, R c x (with_cancelled x true)) ->
  R c (conns t c) (conns (fold_left cancel l t) c).
Proof.
  intros Hl. rewrite fold_cancel_conns. destruct (existsb (N.eqb c) l) eqn:E; [|apply R_refl].
  apply Hl, existsb_eqb_in, E.
Qed.
End ConnRel.

Lemma enqueue_m_cstate s a f c : cstate (conns (enqueue_m s a f) c) = cstate (conns s c).
Proof. now apply (rel_enqueue_m (fun _ x y => cstate y = cstate x)). Qed.
Lemma enqueue_m_other s a f c : c <> a -> conns (enqueue_m s a f) c = conns s c.
Proof. apply (rel_enqueue_m (fun c x y => c <> a -> y = x)); [reflexivity|now intros x H]. Qed.

Lemma step_conn s e (R : N -> conn -> conn -> Prop) s' c :
  (forall c x, R c x x) -> (forall c x y z, R c x y -> R c y z -> R c x z) ->
  (forall c x y, cupd s e c x y -> R c x y) ->
  step true s e = Some s' -> (forall id v, e = Spawn id v -> c <> nconns s) ->
  R c (conns s c) (conns s' c).
Proof.
  intros R_refl R_trans R_upd H Hold.
  pose proof (rel_set_conn R R_refl) as Hset.
  assert (Henq : forall t a f c, notice s e f -> R c (conns t c) (conns (enqueue_m t a f) c)).
  { intros t a f c' Hf. apply rel_enqueue_m; [assumption|]. intros x. apply R_upd, cu_notice, Hf. }
  assert (Hcan : forall t b c, cancels s e b -> R c (conns t c) (conns (cancel t b) c)).
  { intros t b c' Hb. apply Hset, R_upd, cu_cancel, Hb. }
  revert s' H. apply some_rel.
  destruct e as [id v|c0|c0|c0|c0|k|a d tg|c0 pkt|id o|id|c0]; cbn [step].
  - cbn. rewrite fupd_other by now apply (Hold id v). apply R_refl.
  - destruct (_ && _); [|exact I]. cbn [conns].
    eapply R_trans; [|apply Hset, R_upd, cu_insert].
    destruct (reg s (eid (conns s c0))); [apply R_refl|]. apply Henq, status_notgone.
  - destruct (_ <? _); [|exact I]. apply Hset, R_upd, cu_close.
  - destruct (is_running _) eqn:Er; [|exact I]. apply Hset, R_upd, cu_exit, Er.
  - destruct (is_exited _ && _) eqn:Hg; [|exact I]. apply andb_prop in Hg as [Hex _].
    set (s1 := match reg s (eid (conns s c0)) with [] => s | _ :: _ => _ end).
    assert (H1 : R c (conns s c) (conns s1 c) /\ cstate (conns s1 c0) = cstate (conns s c0)).
    { unfold s1. destruct (reg s (eid (conns s c0))) as [|a rest]; [split; [apply R_refl|reflexivity]|].
      destruct (a =? c0); [|split; [apply R_refl|reflexivity]].
      destruct rest as [|p rest]; [split; [apply R_refl|reflexivity]|].
      split; [apply (Henq (set_reg s (eid (conns s c0)) (p :: rest))), status_notgone|].
      apply (enqueue_m_cstate (set_reg s (eid (conns s c0)) (p :: rest))). }
    destruct H1 as [H1 H2]. eapply R_trans; [apply H1|]. apply Hset, R_upd, cu_done. now rewrite H2.
  - destruct (nth_error _ _) as [[gone peer]|] eqn:En; [|exact I].
    set (s1 := set_pending s _).
    destruct (reg s1 peer); [apply R_refl|]. apply (Henq s1). cbn. eauto.
  - destruct (is_running _); [|exact I].
    destruct (reg s d) as [|b rest] eqn:Ed; [apply R_refl|].
    destruct (is_done _); [apply Hcan; cbn; eauto|].
    destruct (_ <? _); [|apply R_refl].
    cbn [set_sent conns]. apply Hset, R_upd, cu_data.
  - destruct (is_running _); [|exact I].
    destruct pkt; [destruct (pq _) eqn:Eq|destruct (mq _) eqn:Eq]; try exact I;
      apply Hset, R_upd; [eapply cu_deliver_p|eapply cu_deliver_m]; eassumption.
  - destruct o as [c1|].
    + destruct (existsb _ _) eqn:Ex; [|apply R_refl].
      apply Hcan. cbn. apply existsb_eqb_in in Ex. auto.
    + apply rel_fold_cancel; [assumption|].
      intros Hc x. apply R_upd, cu_cancel. cbn. auto.
  - cbn [conns]. destruct (existsb _ _) eqn:Ex; [|apply R_refl].
    apply R_upd, cu_take. now apply existsb_eqb_in.
  - destruct (taken _); [|exact I]. now apply Hcan.
Qed.

Definition tables_eq (s s' : state) : Prop :=
  cap s' = cap s /\ nconns s' = nconns s /\ order s' = order s /\ reg s' = reg s /\
  pending s' = pending s /\ sent s' = sent s.

Lemma tables_eq_refl s : tables_eq s s.
Proof. repeat split. Qed.
Lemma tables_eq_trans s t u : tables_eq s t -> tables_eq t u -> tables_eq s u.
Proof. unfold tables_eq. intros H (-> & -> & -> & -> & -> & ->). exact H. Qed.

Lemma set_conn_frame s c x : tables_eq s (set_conn s c x).
Proof. repeat split. Qed.

Lemma enqueue_m_frame s a f : tables_eq s (enqueue_m s a f).
Proof.
  unfold enqueue_m. destruct (is_done _); [apply tables_eq_refl|].
  destruct (_ <? _); [apply set_conn_frame|apply tables_eq_refl].
Qed.

Lemma fold_cancel_frame l : forall s, tables_eq s (fold_left cancel l s).
Proof.
  induction l as [|a l IH]; intros s; cbn [fold_left]; [apply tables_eq_refl|].
  eapply tables_eq_trans; [apply set_conn_frame|apply IH].
Qed.

Lemma filter_id_notin (c : N) l : ~ In c l -> filter (fun y => negb (y =? c)) l = l.
Proof.
  intros H. apply filter_all, forallb_forall. intros x Hx. apply negb_true_iff, N.eqb_neq.
  intros ->. contradiction.
Qed.

(* an entry after the unregister of c: remove_if_mut drops an active c (the next one is promoted),
   or retains the inactive ones other than c *)
Definition unreg_list (c : N) (l : list N) : list N :=
  match l with [] => [] | a :: rest => if a =? c then rest else a :: filter (fun y => negb (y =? c)) rest end.

Lemma unreg_list_filter c l : NoDup l -> unreg_list c l = filter (fun y => negb (y =? c)) l.
Proof.
  destruct l as [|a rest]; [reflexivity|]. intros Hnd. inversion Hnd as [|? ? Hn _]. subst. cbn.
  destruct (a =? c) eqn:E; [|reflexivity]. apply N.eqb_eq in E. subst a. now rewrite filter_id_notin.
Qed.

(* c is the only connection in the entry of its endpoint: its unregister removes the entry, collects the
   peer-gone notices and clears sent_to *)
Definition last_of (s : state) (c : N) : bool :=
  match reg s (eid (conns s c)) with a :: rest => (a =? c) && is_nil rest | [] => false end.

Lemma last_of_iff s c : last_of s c = true <-> reg s (eid (conns s c)) = [c].
Proof.
  unfold last_of. destruct (reg s (eid (conns s c))) as [|a [|b rest]]; cbn [is_nil]; rewrite ?andb_true_r, ?andb_false_r;
    [split; discriminate| |split; discriminate].
  rewrite N.eqb_eq. split; [now intros ->|now intros [= ->]].
Qed.

(* the tables after a step: those an event leaves alone, what the others become, and the part of the
   guard of Insert and Unregister that says where the connection stands *)
Lemma step_frame s e s' :
  step true s e = Some s' ->
  cap s' = cap s /\
  nconns s' = match e with Spawn _ _ => nconns s + 1 | _ => nconns s end /\
  order s' = match e with Insert c => c :: order s | _ => order s end /\
  match e with
  | Insert c => c < nconns s /\ inserted (conns s c) = false /\
                forall i, reg s' i = if i =? eid (conns s c) then c :: reg s i else reg s i
  | Unregister c => inserted (conns s c) = true /\
                    forall i, reg s' i = if i =? eid (conns s c) then unreg_list c (reg s i) else reg s i
  | ShutTake id => reg s' = fupd (reg s) id []
  | _ => reg s' = reg s
  end /\
  pending s' = match e with
               | Unregister c => if last_of s c
                                 then pending s ++ map (pair (eid (conns s c))) (sent s (eid (conns s c)))
                                 else pending s
               | Notify k => remove_nth (N.to_nat k) (pending s)
               | _ => pending s
               end /\
  match e with
  | Unregister c => sent s' = if last_of s c then fupd (sent s) (eid (conns s c)) [] else sent s
  | Send a d _ => sent s' = sent s \/
                  sent s' = fupd (sent s) (eid (conns s a)) (add_sorted d (sent s (eid (conns s a))))
  | _ => sent s' = sent s
  end.
Proof.
  revert s'. apply some_rel. destruct e as [id v|c|c|c|c|k|a d tg|c pkt|id o|id|c]; cbn [step].
  - repeat split.
  - destruct (_ && _) eqn:Hg; [|exact I]. apply andb_prop in Hg as [Hlt Hni]. apply N.ltb_lt in Hlt. apply negb_true_iff in Hni.
    cbn [cap nconns order pending sent reg set_conn]. set (id := eid (conns s c)).
    assert (Hr : forall i, fupd (reg s) id (c :: reg s id) i = if i =? id then c :: reg s i else reg s i).
    { intros i. apply (fupd_if (reg s) id (cons c)). }
    destruct (reg s id) as [|a rest]; cbn [cap nconns order pending sent reg set_reg]; [repeat split; assumption|].
    destruct (enqueue_m_frame s a (status_frame (ver (conns s a)) 1)) as (hc & hn & ho & hr & hp & hs).
    rewrite hr, ho. repeat split; assumption.
  - destruct (_ <? _); [apply set_conn_frame|exact I].
  - destruct (is_running _); [apply set_conn_frame|exact I].
  - cbn [negb orb]. destruct (_ && _) eqn:Hg; [|exact I]. apply andb_prop in Hg as [_ Hi]. unfold last_of.
    cbn [cap nconns order pending sent reg set_conn]. set (id := eid (conns s c)).
    destruct (reg s id) as [|a rest] eqn:E.
    + repeat split; [assumption|]. intros i. destruct (i =? id) eqn:Ei; [apply N.eqb_eq in Ei; subst i; now rewrite E|reflexivity].
    + assert (Hr : forall i, fupd (reg s) id (unreg_list c (a :: rest)) i = if i =? id then unreg_list c (reg s i) else reg s i).
      { intros i. rewrite <- E. apply (fupd_if (reg s) id (unreg_list c)). }
      cbn [unreg_list] in Hr. destruct (a =? c); [destruct rest as [|p rest]|]; try (repeat split; assumption).
      destruct (enqueue_m_frame (set_reg s id (p :: rest)) p (status_frame (ver (conns s p)) 0)) as (hc & hn & ho & hr & hp & hs).
      rewrite hr. repeat split; assumption.
  - destruct (nth_error _ _) as [[gone peer]|]; [|exact I].
    set (s1 := set_pending s _).
    destruct (reg s1 peer) as [|a rest]; [repeat split|].
    repeat split; apply (enqueue_m_frame s1).
  - destruct (is_running _); [|exact I]. destruct (reg s d); [repeat split; now left|].
    destruct (is_done _); [repeat split; now left|]. destruct (_ <? _); repeat split; auto.
  - destruct (is_running _); [|exact I].
    destruct pkt; [destruct (pq _)|destruct (mq _)]; try exact I; apply set_conn_frame.
  - destruct o as [c|]; [|apply fold_cancel_frame].
    destruct (existsb _ _); [apply set_conn_frame|apply tables_eq_refl].
  - repeat split.
  - destruct (taken _); [apply set_conn_frame|exact I].
Qed.

Lemma step_nconns s e s' : step true s e = Some s' -> nconns s <= nconns s'.
Proof. intros H. destruct (step_frame s e s' H) as (_ & -> & _). destruct e; lia. Qed.

(* what [cupd], a may-relation, cannot say: where the event leaves its own connection *)
Lemma step_own s c s' :
  (step true s (Insert c) = Some s' -> inserted (conns s' c) = true) /\
  (step true s (Unregister c) = Some s' -> cstate (conns s' c) = Done).
Proof. split; revert s'; apply some_rel; cbn [step]; (destruct (_ && _); [|exact I]); cbn; now rewrite fupd_same. Qed.

(* the first pending notice can always be sent *)
Lemma notify_head s X p r : pending s = (X, p) :: r ->
  step true s (Notify 0) =
  Some (match reg s p with [] => set_pending s r | b :: _ => enqueue_m (set_pending s r) b (FGone X) end).
Proof.
  intros Hp. cbn [step]. rewrite Hp. cbn [N.to_nat nth_error remove_nth reg set_pending]. now destruct (reg s p).
Qed.

Definition live_for (s : state) (id c : N) : bool :=
  (eid (conns s c) =? id) && negb (taken (conns s c)) && negb (is_done (cstate (conns s c))).

Lemma live_for_iff s id c :
  live_for s id c = true <-> eid (conns s c) = id /\ taken (conns s c) = false /\ cstate (conns s c) <> Done.
Proof.
  unfold live_for. apply andb_assoc_iff. apply andb_iff; [apply N.eqb_eq|]. apply andb_iff; [apply negb_true_iff|].
  destruct (cstate (conns s c)); cbn; split; congruence.
Qed.

Record Inv (s : state) : Prop := {
  inv_nodup : NoDup (order s);
  inv_order : forall c, In c (order s) <-> inserted (conns s c) = true;
  inv_fresh : forall c, nconns s <= c -> inserted (conns s c) = false /\ cstate (conns s c) = Fresh;
  inv_done : forall c, cstate (conns s c) = Done -> inserted (conns s c) = true;
  inv_reg : forall id, reg s id = filter (live_for s id) (order s);
  inv_taken : forall c, taken (conns s c) = true -> inserted (conns s c) = true
}.

Lemma Inv_lt s c : Inv s -> inserted (conns s c) = true -> c < nconns s.
Proof.
  intros I H. destruct (N.lt_ge_cases c (nconns s)) as [?|Hge]; [assumption|].
  destruct (inv_fresh s I c Hge). congruence.
Qed.

Lemma Inv_reg_NoDup s id : Inv s -> NoDup (reg s id).
Proof. intros I. rewrite (inv_reg s I). apply NoDup_filter, (inv_nodup s I). Qed.

(* x and y agree on what [Inv] reads of a connection; [i], [d]: the connection is the one being
   registered / whose task ends, and [inserted] / [is_done] may differ *)
Definition simx (i d : Prop) (x y : conn) : Prop :=
  eid x = eid y /\ (i \/ inserted x = inserted y) /\ (d \/ is_done (cstate x) = is_done (cstate y)) /\
  (cstate x = Fresh -> cstate y = Fresh) /\ taken x = taken y.
Lemma simx_refl i d x : simx i d x x.
Proof. repeat split; auto. Qed.
Lemma simx_trans i d x y z : simx i d x y -> simx i d y z -> simx i d x z.
Proof.
  intros (a & b & c & f & g) (a' & b' & c' & f' & g'). repeat split; try congruence; [| |auto].
  - destruct b, b'; auto. right. congruence.
  - destruct c, c'; auto. right. congruence.
Qed.

Lemma step_simx s e s' c :
  step true s e = Some s' -> (forall id v, e <> Spawn id v) -> (forall id, e <> ShutTake id) ->
  simx (e = Insert c) (e = Unregister c) (conns s c) (conns s' c).
Proof.
  intros H Hsp Ht.
  apply (step_conn s e (fun c => simx (e = Insert c) (e = Unregister c)) s' c);
    [intros; apply simx_refl|intros ? ? ? ?; apply simx_trans| |assumption|intros id v E; now destruct (Hsp id v)].
  intros c' x y U. destruct U; try exact (simx_refl _ _ x); repeat split; auto; try discriminate.
  - right. now destruct (cstate x).
  - now destruct (cstate x).
  - now destruct (cstate x).
  - now destruct (Ht id).
Qed.

Lemma live_for_simx s s' id c i d :
  simx i d (conns s c) (conns s' c) -> ~ d -> live_for s' id c = live_for s id c.
Proof. intros (e1 & _ & [Hd|e3] & _ & e5) Hnd; [contradiction|]. unfold live_for. now rewrite e1, e3, e5. Qed.

(* all of [Inv] but the registry formula is kept by every step that does not create a connection
   or take an entry out of the map *)
Lemma Inv_frame s e s' :
  Inv s -> step true s e = Some s' -> (forall id v, e <> Spawn id v) -> (forall id, e <> ShutTake id) ->
  (forall id, reg s' id = filter (live_for s' id) (order s')) -> Inv s'.
Proof.
  intros [I1 I2 I3 I4 I5 I6] H Hsp Hst Hr.
  destruct (step_frame s e s' H) as (_ & hn & ho & hg & _).
  assert (Hs : forall c, simx (e = Insert c) (e = Unregister c) (conns s c) (conns s' c)).
  { intros c. now apply step_simx. }
  assert (HI : forall c, e = Insert c -> ~ In c (order s) /\ c < nconns s /\ inserted (conns s' c) = true).
  { intros c ->. destruct hg as (Hlt & Hni & _). split; [rewrite I2; congruence|]. split; [assumption|].
    apply (step_own s c s'), H. }
  (* the event is a variable: its case analyses are done with only what they need in the context *)
  assert (Hn : nconns s' = nconns s) by (clear - hn Hsp; destruct e; try assumption; now destruct (Hsp id v)).
  assert (Hins : forall c, inserted (conns s c) = true -> inserted (conns s' c) = true).
  { intros c Hc. destruct (Hs c) as (_ & [Hi|e2] & _); [now apply HI|congruence]. }
  constructor; try assumption.
  - clear - ho I1 HI. rewrite ho. destruct e; try assumption. constructor; [now apply HI|assumption].
  - intros c. destruct (Hs c) as (_ & [->|e2] & _).
    + rewrite ho. destruct (HI c eq_refl) as (_ & _ & ->). split; [reflexivity|now left].
    + rewrite <- e2, <- I2, ho. clear - e2 I2 HI. destruct e; try reflexivity.
      split; [intros [<-|Hc]; [|assumption]|now right].
      destruct (HI c0 eq_refl) as (_ & _ & Hi'). rewrite <- e2 in Hi'. now apply I2.
  - intros c Hc. rewrite Hn in Hc. destruct (I3 c Hc) as [a b].
    destruct (Hs c) as (_ & [Hi|e2] & _ & e4 & _); [apply HI in Hi; lia|]. split; [congruence|auto].
  - intros c Hd. apply Hins. destruct (Hs c) as (_ & _ & [->|e3] & _); [apply hg|]. apply I4.
    rewrite Hd in e3. destruct (cstate (conns s c)); cbn in e3; congruence.
  - intros c Ht. apply Hins, I6. destruct (Hs c) as (_ & _ & _ & _ & e5). congruence.
Qed.

Lemma Inv_init cap : Inv (init cap).
Proof.
  constructor; cbn; try discriminate.
  - constructor.
  - intros c; split; [tauto|discriminate].
  - intros; split; reflexivity.
  - reflexivity.
Qed.

Lemma Inv_spawn s id v s' : Inv s -> step true s (Spawn id v) = Some s' -> Inv s'.
Proof.
  intros [I1 I2 I3 I4 I5 I6] H. cbn in H. injection H as <-.
  assert (Hnew : forall (P : conn -> Prop) c, P (fresh_conn id v) -> P (conns s c) ->
                   P (fupd (conns s) (nconns s) (fresh_conn id v) c)).
  { intros P c Hf Hc. unfold fupd. now destruct (c =? nconns s). }
  constructor; cbn.
  - exact I1.
  - intros c. rewrite I2. unfold fupd. destruct (c =? nconns s) eqn:E; [|reflexivity].
    apply N.eqb_eq in E. subst c. destruct (I3 (nconns s)) as [a _]; [lia|]. rewrite a. cbn. split; discriminate.
  - intros c Hc. rewrite fupd_other by lia. apply I3. lia.
  - intros c. apply Hnew; [discriminate|apply I4].
  - intros i. rewrite I5. apply filter_ext_in. intros c Hc. unfold live_for. cbn.
    rewrite fupd_other; [reflexivity|]. intros ->. apply I2 in Hc. destruct (I3 (nconns s)); [lia|congruence].
  - intros c. apply Hnew; [discriminate|apply I6].
Qed.

Lemma reg_insert s c s' :
  Inv s -> step true s (Insert c) = Some s' -> forall i, reg s' i = filter (live_for s' i) (order s').
Proof.
  intros I H i. destruct (step_frame _ _ _ H) as (_ & _ & ho & (_ & Hni & hr) & _).
  assert (Hl : forall c', live_for s' i c' = live_for s i c').
  { intros c'. eapply live_for_simx; [apply (step_simx _ _ _ c' H)|]; discriminate. }
  rewrite hr, ho. cbn [filter]. rewrite (filter_ext _ _ Hl), Hl, <- (inv_reg s I).
  unfold live_for. rewrite (N.eqb_sym i). destruct (eid (conns s c) =? i); [|reflexivity].
  replace (taken (conns s c)) with false.
  2:{ destruct (taken (conns s c)) eqn:Et; [|reflexivity]. apply (inv_taken s I) in Et. congruence. }
  destruct (cstate (conns s c)) eqn:Ec; try reflexivity. apply (inv_done s I) in Ec. congruence.
Qed.

Lemma reg_unregister s c s' :
  Inv s -> step true s (Unregister c) = Some s' -> forall i, reg s' i = filter (live_for s' i) (order s').
Proof.
  intros I H i. destruct (step_frame _ _ _ H) as (_ & _ & ho & (_ & hr) & _).
  assert (Hl : forall c', live_for s' i c' = live_for s i c' && negb (c' =? c)).
  { intros c'. destruct (c' =? c) eqn:Ecc.
    - apply N.eqb_eq in Ecc. subst c'. unfold live_for. rewrite (proj2 (step_own s c s') H). cbn. now rewrite !andb_false_r.
    - rewrite andb_true_r. eapply live_for_simx; [apply (step_simx _ _ _ c' H); discriminate|].
      intros Hx. injection Hx as ->. now rewrite N.eqb_refl in Ecc. }
  rewrite hr, ho, (inv_reg s I). destruct (i =? eid (conns s c)) eqn:Ei.
  - rewrite unreg_list_filter by apply NoDup_filter, (inv_nodup s I).
    rewrite filter_filter_and. apply filter_ext. intros c'. now rewrite Hl.
  - apply filter_ext. intros c'. rewrite Hl. destruct (c' =? c) eqn:Ecc; [|now rewrite andb_true_r].
    apply N.eqb_eq in Ecc. subst c'. unfold live_for. rewrite N.eqb_sym, Ei. reflexivity.
Qed.

(* Clients::shutdown takes the entry of an id out of the map: only that entry changes, and its
   connections are marked *)
Lemma shut_take_effect s id s' :
  step true s (ShutTake id) = Some s' ->
  reg s' id = [] /\ (forall i, i <> id -> reg s' i = reg s i) /\ sent s' = sent s /\ pending s' = pending s /\
  (forall c, In c (reg s id) -> taken (conns s' c) = true) /\
  (forall c, ~ In c (reg s id) -> conns s' c = conns s c).
Proof.
  revert s'. apply some_rel. cbn. split; [apply fupd_same|]. split; [intros; now apply fupd_other|].
  split; [reflexivity|]. split; [reflexivity|]. split; intros c Hc.
  - apply existsb_eqb_in in Hc. now rewrite Hc.
  - apply existsb_eqb_notin in Hc. now rewrite Hc.
Qed.

Lemma Inv_shuttake s id s' : Inv s -> step true s (ShutTake id) = Some s' -> Inv s'.
Proof.
  intros I H. pose proof I as [I1 I2 I3 I4 I5 I6]. cbn [step] in H. injection H as <-.
  assert (Hin : forall c, existsb (N.eqb c) (reg s id) = true <-> In c (order s) /\ live_for s id c = true).
  { intros c. now rewrite existsb_eqb_in, I5, filter_In. }
  constructor; cbn.
  - exact I1.
  - intros c. destruct (existsb (N.eqb c) (reg s id)); cbn; apply I2.
  - intros c Hc. destruct (existsb (N.eqb c) (reg s id)); cbn; apply I3; assumption.
  - intros c. destruct (existsb (N.eqb c) (reg s id)); cbn; apply I4.
  - intros i. unfold fupd, live_for. cbn. destruct (i =? id) eqn:Ei.
    + apply N.eqb_eq in Ei. subst i. symmetry. apply filter_none. intros c Hc.
      destruct (existsb (N.eqb c) (reg s id)) eqn:Ex; cbn; [now rewrite andb_false_r|].
      destruct (live_for s id c) eqn:El; [|exact El].
      assert (existsb (N.eqb c) (reg s id) = true) by (apply Hin; auto). congruence.
    + rewrite I5. apply filter_ext. intros c.
      destruct (existsb (N.eqb c) (reg s id)) eqn:Ex; [|reflexivity]. cbn.
      apply Hin in Ex as [_ Ex]. apply live_for_iff in Ex as [Ex _].
      unfold live_for. rewrite Ex, (N.eqb_sym id i), Ei. reflexivity.
  - intros c. destruct (existsb (N.eqb c) (reg s id)) eqn:Ex; cbn; [intros _|apply I6].
    apply Hin in Ex as [Ex _]. now apply I2.
Qed.

Lemma Inv_step s e s' : Inv s -> step true s e = Some s' -> Inv s'.
Proof.
  intros I H. destruct (step_frame s e s' H) as (_ & _ & ho & hr & _).
  destruct e;
    first [eapply Inv_spawn; eassumption|eapply Inv_shuttake; eassumption|
           apply (Inv_frame s _ s' I H); [discriminate..|]];
    first [eapply reg_insert; eassumption|eapply reg_unregister; eassumption|idtac].
  (* the other events leave the entries, the order and who is live alone *)
  all: intros i; rewrite hr, ho, (inv_reg s I); apply filter_ext; intros c'; symmetry.
  all: eapply live_for_simx; [apply (step_simx _ _ _ c' H)|]; discriminate.
Qed.

Inductive reach : state -> Prop :=
| reach_init cap : reach (init cap)
| reach_step s e s' : reach s -> step true s e = Some s' -> reach s'.

Lemma reach_Inv s : reach s -> Inv s.
Proof. induction 1; [apply Inv_init|eapply Inv_step; eassumption]. Qed.

(* [run] carries [locked] through its recursion, so it is [orun] by induction and not by conversion *)
Lemma run_orun locked tr : forall s, run locked s tr = orun (step locked) s tr.
Proof. induction tr as [|e tr IH]; intros s; cbn; [reflexivity|]. destruct (step locked s e); auto. Qed.

Lemma run_reach tr s s' : reach s -> run true s tr = Some s' -> reach s'.
Proof. rewrite run_orun. apply (orun_inv (step true) reach). intros t e t'. apply reach_step. Qed.

Lemma run_Inv cap tr s : run true (init cap) tr = Some s -> Inv s.
Proof. intros H. apply reach_Inv. eapply run_reach; [apply reach_init|eassumption]. Qed.

(* The registered connections of an id, active first, are exactly the connections of that id
   whose registration has happened, that no shutdown has taken out of the map and whose actor task
   has not ended, newest first. *)
Lemma registry_is_newest_live cap tr s :
  run true (init cap) tr = Some s ->
  forall id, reg s id = filter (live_for s id) (order s).
Proof. intros H. apply (inv_reg s (run_Inv _ _ _ H)). Qed.

Definition live (s : state) (c : N) : Prop :=
  inserted (conns s c) = true /\ taken (conns s c) = false /\ cstate (conns s c) <> Done.

Lemma reg_In s id c : Inv s -> (In c (reg s id) <-> live s c /\ eid (conns s c) = id).
Proof.
  intros I. rewrite (inv_reg s I), filter_In, (inv_order s I), live_for_iff. unfold live. tauto.
Qed.

Lemma registered_eid s id c : Inv s -> In c (reg s id) -> eid (conns s c) = id /\ inserted (conns s c) = true.
Proof. intros I H. apply (reg_In s id c I) in H as [(hi & _) he]. auto. Qed.

Lemma registered_lt s id c : Inv s -> In c (reg s id) -> c < nconns s.
Proof. intros I H. apply (Inv_lt s c I). now destruct (registered_eid s id c I H). Qed.

Lemma insert_fresh s c si i : Inv s -> step true s (Insert c) = Some si -> ~ In c (reg s i).
Proof.
  intros I E Hc. destruct (step_frame s _ si E) as (_ & _ & _ & (_ & Hni & _) & _).
  destruct (registered_eid s i c I Hc). congruence.
Qed.

(* a is before b in l; in [order s], which is newest first: a was registered after b *)
Fixpoint newer_in (l : list N) (a b : N) : Prop :=
  match l with
  | [] => False
  | x :: r => (x = a /\ In b r) \/ newer_in r a b
  end.

Lemma filter_head_newest {p : N -> bool} l a rest :
  filter p l = a :: rest -> forall b, In b l -> p b = true -> b <> a -> newer_in l a b.
Proof.
  induction l as [|x l IH]; cbn; [discriminate|].
  destruct (p x) eqn:Ex.
  - intros H. injection H as -> Hr. intros b [Hb|Hb] Hpb Hne; [congruence|]. left. auto.
  - intros H b [Hb|Hb] Hpb Hne; [congruence|]. right. auto.
Qed.

Lemma active_newest s id a rest :
  Inv s -> reg s id = a :: rest ->
  eid (conns s a) = id /\ live s a /\
  forall b, live s b -> eid (conns s b) = id -> b <> a -> newer_in (order s) a b.
Proof.
  intros I Hreg.
  assert (Ha : In a (reg s id)) by (rewrite Hreg; now left). apply (reg_In s id a I) in Ha as [La Ea].
  split; [exact Ea|]. split; [exact La|]. intros b Lb Eb Hne.
  rewrite (inv_reg s I) in Hreg. apply (filter_head_newest _ _ _ Hreg); [apply (inv_order s I), Lb| |assumption].
  apply live_for_iff. unfold live in Lb. tauto.
Qed.

Lemma active_is_newest_open cap tr s :
  run true (init cap) tr = Some s ->
  forall id a rest, reg s id = a :: rest ->
    eid (conns s a) = id /\ live s a /\
    forall b, live s b -> eid (conns s b) = id -> b <> a -> newer_in (order s) a b.
Proof. intros H id a rest. apply active_newest, (run_Inv _ _ _ H). Qed.

Lemma entry_iff_some_conn cap tr s :
  run true (init cap) tr = Some s ->
  forall id, reg s id <> [] <-> exists c, live s c /\ eid (conns s c) = id.
Proof.
  intros H id. pose proof (run_Inv _ _ _ H) as I. split.
  - destruct (reg s id) as [|a r] eqn:E; [congruence|]. intros _. exists a. apply reg_In; [assumption|].
    rewrite E. now left.
  - intros (c & Hc) E. apply (reg_In s id c I) in Hc. now rewrite E in Hc.
Qed.

(* no connection whose task has ended stays registered *)
Lemma registered_are_live cap tr s :
  run true (init cap) tr = Some s ->
  forall id c, In c (reg s id) -> live s c /\ eid (conns s c) = id.
Proof. intros H id c. apply reg_In, (run_Inv _ _ _ H). Qed.

(* a connection that a shutdown took out of the map is in no entry ever after, not even in the new
   one of its endpoint after a reconnect *)
Lemma taken_not_registered s c id : Inv s -> taken (conns s c) = true -> ~ In c (reg s id).
Proof. intros I Ht Hin. apply (reg_In s id c I) in Hin as [(_ & Hf & _) _]. congruence. Qed.

(* A stale unregister — of a connection that is not in the entry of its endpoint, Clients::shutdown
   having taken the entry out (the endpoint may have reconnected since) — only ends that
   connection's own task. *)
Lemma stale_unregister_changes_nothing s c s' :
  step true s (Unregister c) = Some s' -> ~ In c (reg s (eid (conns s c))) ->
  (forall id, reg s' id = reg s id) /\ sent s' = sent s /\ pending s' = pending s /\
  (forall c', c' <> c -> conns s' c' = conns s c') /\ conns s' c = with_cstate (conns s c) Done.
Proof.
  revert s'. refine (some_rel _ _ _). cbn [step]. destruct (is_exited _ && _); [|exact I]. intros Hn.
  set (id := eid (conns s c)) in *.
  destruct (reg s id) as [|a rest] eqn:E.
  - cbn. repeat split; [intros; now apply fupd_other|apply fupd_same].
  - destruct (a =? c) eqn:Eac; [apply N.eqb_eq in Eac; subst a; exfalso; apply Hn; now left|].
    rewrite filter_id_notin by (intros Hx; apply Hn; now right). cbn.
    split; [|repeat split; [intros; now apply fupd_other|apply fupd_same]].
    intros i. unfold fupd. destruct (i =? id) eqn:Ei; [|reflexivity]. apply N.eqb_eq in Ei. now subst.
Qed.

Lemma taken_unregister_changes_nothing cap tr s c s' :
  run true (init cap) tr = Some s -> taken (conns s c) = true ->
  step true s (Unregister c) = Some s' ->
  (forall id, reg s' id = reg s id) /\ sent s' = sent s /\ pending s' = pending s /\
  (forall c', c' <> c -> conns s' c' = conns s c').
Proof.
  intros H Ht E.
  destruct (stale_unregister_changes_nothing s c s' E (taken_not_registered s c _ (run_Inv _ _ _ H) Ht)) as (a & b & d & e & _).
  auto.
Qed.

(* non-vacuity: shutdown takes A's entry, A reconnects, the old connection's actor is stopped and
   unregisters: the new connection stays registered and running *)
Example stale_unregister_example :
  exists s, run true (init 3)
    [Spawn 0 2; Insert 0; ShutTake 0; Spawn 0 2; Insert 1; ShutStop 0; Exit 0; Unregister 0] = Some s /\
    reg s 0 = [1] /\ cstate (conns s 0) = Done /\ taken (conns s 0) = true /\
    cstate (conns s 1) = Running /\ pending s = [].
Proof. apply some_ex. vm_compute. repeat split. Qed.

Definition room (s : state) (a : N) : Prop :=
  cstate (conns s a) <> Done /\ len (mq (conns s a)) < cap s.

Lemma enqueue_m_room s a f :
  room s a -> conns (enqueue_m s a f) a = with_mq (conns s a) (mq (conns s a) ++ [f]).
Proof.
  intros [h1 h2]. unfold enqueue_m.
  replace (is_done (cstate (conns s a))) with false by (now destruct (cstate (conns s a))).
  apply N.ltb_lt in h2. rewrite h2. cbn. apply fupd_same.
Qed.

(* Insert over an existing entry: the old active connection goes onto the inactive stack and, if
   its message queue has room, is told that another connection of its endpoint took over. *)
Lemma displaced_is_told s c s' a rest :
  Inv s -> step true s (Insert c) = Some s' ->
  reg s (eid (conns s c)) = a :: rest ->
  reg s' (eid (conns s c)) = c :: a :: rest /\
  (room s a -> mq (conns s' a) = mq (conns s a) ++ [status_frame (ver (conns s a)) 1]).
Proof.
  intros I H Hreg.
  assert (Hne : a <> c).
  { intros ->. apply (insert_fresh s c s' (eid (conns s c)) I H). rewrite Hreg. now left. }
  cbn [step] in H. destruct (_ && _); [|discriminate].
  rewrite Hreg in H. injection H as <-. cbn. rewrite fupd_same. split; [reflexivity|].
  intros Hroom.
  rewrite fupd_other by assumption. now rewrite enqueue_m_room.
Qed.

(* Unregister of the active connection: the most recently displaced one becomes active again
   and, if its message queue has room, is told it is healthy. *)
Lemma promoted_is_told s c s' p rest :
  Inv s -> step true s (Unregister c) = Some s' ->
  reg s (eid (conns s c)) = c :: p :: rest ->
  reg s' (eid (conns s c)) = p :: rest /\
  (room s p -> mq (conns s' p) = mq (conns s p) ++ [status_frame (ver (conns s p)) 0]).
Proof.
  intros I H Hreg. cbn [step] in H.
  destruct (is_exited (cstate (conns s c)) && _) eqn:Hc; [|discriminate].
  rewrite Hreg, N.eqb_refl in H. injection H as <-.
  assert (Hne : p <> c).
  { intros ->. assert (Hnd : NoDup (reg s (eid (conns s c)))).
    { apply Inv_reg_NoDup, I. }
    rewrite Hreg in Hnd. inversion Hnd as [|? ? Hn _]. apply Hn. now left. }
  set (s0 := set_reg s (eid (conns s c)) (p :: rest)).
  destruct (enqueue_m_frame s0 p (status_frame (ver (conns s p)) 0)) as (_ & _ & _ & hr & _).
  cbn. rewrite hr. cbn. rewrite fupd_same. split; [reflexivity|].
  intros Hroom. rewrite fupd_other by assumption.
  rewrite (enqueue_m_room s0 p); [reflexivity|exact Hroom].
Qed.

Lemma remove_nth_in {A} (l : list A) : forall n y, In y (remove_nth n l) -> In y l.
Proof. induction l as [|z l IHl]; intros [|n] y; cbn; auto. intros [Hy|Hy]; [now left|right; eauto]. Qed.

(* A peer-gone notice for A comes only from the unregister of A's last registered connection:
   after it A has no entry and no live connection; the notice goes to an endpoint A had sent to. *)
Lemma peer_gone_only_after_last s e s' A p :
  Inv s -> step true s e = Some s' ->
  In (A, p) (pending s') -> ~ In (A, p) (pending s) ->
  exists c, e = Unregister c /\ eid (conns s c) = A /\ reg s A = [c] /\ reg s' A = [] /\
            In p (sent s A) /\ sent s' A = [] /\
            (forall c', live s' c' -> eid (conns s' c') <> A).
Proof.
  intros I H Hin Hnin. pose proof (Inv_step s e s' I H) as I'.
  destruct (step_frame s e s' H) as (_ & _ & _ & hr & hp & hs). rewrite hp in Hin.
  destruct e as [id v|c|c|c|c|k|a d tg|c pkt|id o|id|c]; try contradiction.
  2:{ apply remove_nth_in in Hin. contradiction. }
  destruct (last_of s c) eqn:El; [|contradiction]. pose proof (proj1 (last_of_iff s c) El) as Hreg.
  apply in_app_or in Hin as [Hin|Hin]; [contradiction|].
  apply in_map_iff in Hin as (p' & Hp & Hin). injection Hp as <- ->.
  assert (Hnil : reg s' (eid (conns s c)) = []).
  { rewrite (proj2 hr), N.eqb_refl, Hreg. cbn. now rewrite N.eqb_refl. }
  exists c. split; [reflexivity|]. split; [reflexivity|]. split; [assumption|]. split; [assumption|].
  split; [assumption|]. split; [rewrite hs; apply fupd_same|].
  intros c' Hl He. apply (conj Hl), (reg_In s' _ c' I') in He. now rewrite Hnil in He.
Qed.

Definition is_gone (f : frame) : bool := match f with FGone _ => true | _ => false end.

Lemma add_sorted_self x l : In x (add_sorted x l).
Proof.
  induction l as [|y r IH]; cbn; [now left|].
  destruct (x <? y); [now left|]. destruct (x =? y) eqn:E; [|now right].
  apply N.eqb_eq in E. subst. now left.
Qed.

Lemma add_sorted_in x l y : In y (add_sorted x l) -> y = x \/ In y l.
Proof.
  induction l as [|z r IH]; cbn; [intros [<-|[]]; auto|].
  destruct (x <? z); [intros [<-|H]; auto|]. destruct (x =? z); [auto|].
  intros [<-|H]; [right; now left|]. destruct (IH H); auto.
Qed.

Lemma add_sorted_SS x l : StronglySorted N.lt l -> StronglySorted N.lt (add_sorted x l).
Proof.
  induction 1 as [|z r Hs IH Hf]; cbn; [repeat constructor|].
  destruct (x <? z) eqn:E1.
  - apply N.ltb_lt in E1. constructor; [now constructor|]. constructor; [assumption|].
    eapply Forall_impl; [|exact Hf]. intros w Hw. cbn in Hw. lia.
  - destruct (x =? z) eqn:E2; [now constructor|]. apply N.ltb_ge in E1. apply N.eqb_neq in E2.
    constructor; [assumption|]. apply Forall_forall. intros w Hw.
    apply add_sorted_in in Hw as [->|Hw]; [lia|]. rewrite Forall_forall in Hf. now apply Hf.
Qed.

Lemma step_sent_sorted s e s' :
  (forall id, StronglySorted N.lt (sent s id)) -> step true s e = Some s' ->
  forall id, StronglySorted N.lt (sent s' id).
Proof.
  intros Hs H id. destruct (step_frame s e s' H) as (_ & _ & _ & _ & _ & hs).
  assert (Hf : forall k l, StronglySorted N.lt l -> StronglySorted N.lt (fupd (sent s) k l id)).
  { intros k l Hl. unfold fupd. now destruct (id =? k). }
  destruct e as [i v|c|c|c|c|k|a d tg|c pkt|i o|i|c]; try (rewrite hs; apply Hs).
  - rewrite hs. destruct (last_of s c); [apply Hf; constructor|apply Hs].
  - destruct hs as [-> | ->]; [apply Hs|apply Hf, add_sorted_SS, Hs].
Qed.

(* [add_sorted] keeps the sent_to sets strictly sorted, hence duplicate-free *)
Lemma reach_sent_NoDup s : reach s -> forall id, NoDup (sent s id).
Proof.
  intros R id. apply sorted_NoDup. revert id. induction R; [intros; constructor|].
  eapply step_sent_sorted; eassumption.
Qed.

(* Send queues the datagram on the active connection of the destination (by [Inv] its newest live
   one), under the sender's authenticated id, and records the destination in the sender's sent_to. *)
Lemma send_goes_to_active s a d tg s' b rest :
  step true s (Send a d tg) = Some s' -> reg s d = b :: rest ->
  cstate (conns s b) <> Done -> len (pq (conns s b)) < cap s ->
  pq (conns s' b) = pq (conns s b) ++ [FData (eid (conns s a)) tg] /\
  In d (sent s' (eid (conns s a))) /\
  forall c, c <> b -> pq (conns s' c) = pq (conns s c).
Proof.
  intros H Hreg Hnd Hroom. revert s' H. apply some_rel. cbn [step].
  destruct (is_running (cstate (conns s a))); [|exact I]. rewrite Hreg.
  replace (is_done (cstate (conns s b))) with false by (now destruct (cstate (conns s b))).
  apply N.ltb_lt in Hroom. rewrite Hroom. cbn [conns sent set_sent set_conn].
  rewrite !fupd_same. split; [reflexivity|]. split; [apply add_sorted_self|].
  intros c Hc. now rewrite fupd_other.
Qed.

(* Without the entry lock held across Client::new (locked = false) the schedule
   register a; [spawn b; exit b; unregister b; insert b] leaves b — whose task has ended —
   registered as the active connection while a is open. *)
Definition bad_trace : list event :=
  [Spawn 0 2; Insert 0; Spawn 0 2; Exit 1; Unregister 1; Insert 1].

Example unlocked_register_refuted :
  exists s, run false (init 3) bad_trace = Some s /\
            reg s 0 = [1; 0] /\ cstate (conns s 1) = Done /\ cstate (conns s 0) = Running.
Proof. apply some_ex. vm_compute. repeat split. Qed.

(* with the lock the same schedule is not possible: unregister b is not enabled before insert b *)
Example locked_register_blocks : run true (init 3) bad_trace = None.
Proof. reflexivity. Qed.

(* non-vacuity: three connections of one id, promotion order, peer-gone after the last *)
Example promotion_example :
  exists s, run true (init 3)
    [Spawn 0 2; Insert 0; Spawn 0 1; Insert 1; Spawn 0 2; Insert 2; Spawn 1 2; Insert 3;
     Send 2 1 7; Exit 2; Unregister 2; Exit 0; Unregister 0; Exit 1; Unregister 1; Notify 0] = Some s /\
    reg s 0 = [] /\ mq (conns s 1) = [FHealth 1; FHealth 0] /\ mq (conns s 0) = [FStatus 1] /\
    mq (conns s 3) = [FGone 0] /\ pq (conns s 3) = [FData 0 7].
Proof. apply some_ex. vm_compute. repeat split. Qed.

Lemma doev_rel (Q : state -> Prop) s e :
  Q s -> (forall s', step true s e = Some s' -> Q s') -> Q (doev s e).
Proof.
  intros Hs Hstep. unfold doev. change locked_register with true.
  destruct (step true s e) eqn:E; auto.
Qed.

Lemma doev_some s e s' : step true s e = Some s' -> doev s e = s'.
Proof. unfold doev. change locked_register with true. now intros ->. Qed.

(* Every event but Exit and Deliver, which only [settle] takes. *)
Definition script_ev (e : event) : Prop :=
  match e with Exit _ | Deliver _ _ => False | _ => True end.

(* what the script semantics does between two scheduler rounds: events drawn from P, each taken
   if it is enabled and skipped otherwise *)
Inductive srun (P : event -> Prop) (s : state) : state -> Prop :=
| srun_refl : srun P s s
| srun_step t e : srun P s t -> P e -> srun P s (doev t e).

Lemma srun_one (P : event -> Prop) s e : P e -> srun P s (doev s e).
Proof. intros H. apply srun_step; [apply srun_refl|exact H]. Qed.

Lemma srun_trans P s t u : srun P s t -> srun P t u -> srun P s u.
Proof. intros H1 H2. induction H2; [assumption|now apply srun_step]. Qed.

Lemma srun_sub (P Q : event -> Prop) s t : (forall e, P e -> Q e) -> srun P s t -> srun Q s t.
Proof. intros H R. induction R; [apply srun_refl|apply srun_step; auto]. Qed.

Lemma srun_rel (P : event -> Prop) (Q : state -> state -> Prop) :
  (forall t, Q t t) -> (forall t u v, Q t u -> Q u v -> Q t v) ->
  (forall t e, P e -> Q t (doev t e)) -> forall s s', srun P s s' -> Q s s'.
Proof. intros Hr Ht Hs s s' R. induction R; [apply Hr|eapply Ht; eauto]. Qed.

Lemma srun_inv (P : event -> Prop) (J : state -> Prop) :
  (forall t e, P e -> J t -> J (doev t e)) -> forall s s', srun P s s' -> J s -> J s'.
Proof. intros Hs. apply (srun_rel P (fun s t => J s -> J t)); auto. Qed.

Lemma fold_doev_srun {A} (P : event -> Prop) (f : A -> event) l :
  (forall a, P (f a)) -> forall s, srun P s (fold_left (fun s a => doev s (f a)) l s).
Proof.
  intros Hf. induction l as [|a l IH]; intros s; cbn [fold_left]; [apply srun_refl|].
  eapply srun_trans; [apply srun_one, Hf|apply IH].
Qed.

Definition notify_ev (e : event) : Prop := match e with Notify _ => True | _ => False end.
Definition shut_ev (e : event) : Prop := match e with ShutTake _ | ShutStop _ => True | _ => False end.

Lemma notify_all_srun fuel : forall s, srun notify_ev s (notify_all fuel s).
Proof.
  induction fuel as [|f IH]; intros s; cbn [notify_all]; [apply srun_refl|].
  destruct (pending s); [apply srun_refl|]. eapply srun_trans; [apply (srun_one notify_ev s (Notify 0) I)|apply IH].
Qed.

Lemma notify_all_script fuel s : srun script_ev s (notify_all fuel s).
Proof. eapply srun_sub; [|apply notify_all_srun]. now intros []. Qed.

Lemma unregister_full_script s c : srun script_ev s (unregister_full s c).
Proof.
  unfold unregister_full. eapply srun_trans; [apply (srun_one script_ev s (Unregister c) I)|apply notify_all_script].
Qed.

Lemma shut_all_srun s : srun shut_ev s (shut_all s).
Proof.
  unfold shut_all. eapply srun_trans; [apply (fold_doev_srun shut_ev ShutTake)|apply (fold_doev_srun shut_ev ShutStop)];
    exact (fun _ => I).
Qed.

Lemma doev_reach s e : reach s -> reach (doev s e).
Proof. intros H. apply doev_rel; [assumption|]. intros s' E. econstructor; eassumption. Qed.

Lemma srun_reach P s s' : srun P s s' -> reach s -> reach s'.
Proof. apply srun_inv. intros t e _. apply doev_reach. Qed.

Lemma settle_exits_reach s : reach s -> reach (settle_exits s).
Proof.
  unfold settle_exits. apply fold_left_inv. intros t c H.
  destruct (_ && _); [now apply doev_reach|assumption].
Qed.

Lemma deliver_all_reach fuel : forall s c pkt, reach s -> reach (deliver_all fuel s c pkt).
Proof.
  induction fuel as [|f IH]; cbn [deliver_all]; intros s c pkt H; [assumption|].
  change locked_register with true.
  destruct (step true s (Deliver c pkt)) eqn:E; [|assumption].
  apply IH. econstructor; eassumption.
Qed.

Lemma settle_reach s : reach s -> reach (settle s).
Proof.
  intros H. unfold settle, settle_deliver. apply fold_left_inv.
  - intros t c Ht. now apply deliver_all_reach, deliver_all_reach.
  - now apply settle_exits_reach.
Qed.

Lemma unregister_full_reach s c : reach s -> reach (unregister_full s c).
Proof. apply (srun_reach script_ev), unregister_full_script. Qed.

Lemma nth_states s c :
  c < nconns s -> nth (N.to_nat c) (states_of s) 2 = cst_code (cstate (conns s c)).
Proof.
  intros H. unfold states_of, crange.
  set (g := fun c0 => cst_code (cstate (conns s c0))).
  rewrite map_map.
  rewrite (nth_indep _ 2 ((fun x => g (N.of_nat x)) 0%nat)) by (rewrite map_length, seq_length; lia).
  rewrite (map_nth (fun x => g (N.of_nat x))). rewrite seq_nth by lia. cbn. unfold g. now rewrite N2Nat.id.
Qed.

Lemma expected_stack_model s id :
  Inv s -> expected_stack s (states_of s) id = reg s id.
Proof.
  intros I. rewrite (inv_reg s I). unfold expected_stack. apply filter_ext_in. intros c Hc.
  assert (Hlt : c < nconns s) by (apply (Inv_lt s c I), (inv_order s I), Hc).
  rewrite nth_states by assumption. unfold live_for. f_equal.
  now destruct (cstate (conns s c)).
Qed.

Lemma snapshot_ids_ok s : forallb (fun e : N * N * list N => fst (fst e) <? 4) (snapshot s) = true.
Proof.
  apply forallb_forall. intros e He. apply in_flat_map in He as (i & Hi & He).
  destruct (reg s i); [contradiction|]. destruct He as [<-|[]]. now apply (forallb_forall (fun i => i <? 4) ids).
Qed.

(* F gives at most one element per index, keyed by it: the shape of [snapshot] and [news_of] *)
Lemma find_flat_map_key {B} (key : B -> N) (F : N -> list B) k :
  (forall i, match F i with [] => True | [b] => key b = i | _ => False end) ->
  forall L, find (fun e => key e =? k) (flat_map F L) = if existsb (N.eqb k) L then hd_error (F k) else None.
Proof.
  intros HF. induction L as [|a L IH]; cbn [flat_map existsb]; [reflexivity|].
  specialize (HF a). destruct (F a) as [|b [|]] eqn:Ea; try contradiction; cbn [app find].
  - rewrite IH. destruct (k =? a) eqn:E; cbn [orb]; [|reflexivity].
    apply N.eqb_eq in E. subst. rewrite Ea. now destruct (existsb _ _).
  - rewrite HF, (N.eqb_sym a k). destruct (k =? a) eqn:E; cbn [orb]; [|exact IH].
    apply N.eqb_eq in E. subst. now rewrite Ea.
Qed.

Lemma stack_of_snapshot_any s id :
  stack_of_snap (snapshot s) id = if existsb (N.eqb id) ids then reg s id else [].
Proof.
  unfold stack_of_snap, snapshot. rewrite (find_flat_map_key (fun e => fst (fst e))) by (intros i; now destruct (reg s i)).
  destruct (existsb _ _); [|reflexivity]. destruct (reg s id); [reflexivity|].
  cbn. now rewrite rev_involutive.
Qed.

Lemma stack_of_snapshot s id : In id ids -> stack_of_snap (snapshot s) id = reg s id.
Proof. intros H. apply existsb_eqb_in in H. now rewrite stack_of_snapshot_any, H. Qed.

Lemma registry_ok_model ss0 ss1 r : Inv (st ss1) -> registry_ok (st ss1) (observe ss0 ss1 r) = true.
Proof.
  intros I. unfold registry_ok, observe. cbn [o_snap o_states].
  destruct (win ss1); [reflexivity|].
  rewrite snapshot_ids_ok. cbn [andb].
  apply forallb_forall. intros id Hid.
  rewrite stack_of_snapshot by assumption. rewrite expected_stack_model by assumption.
  apply list_eqb_refl, N.eqb_refl.
Qed.

(* the shape in which a scheduler round is described: g applied to each connection in l, the
   tables left alone *)
Definition pointwise (g : conn -> conn) (l : list N) (s s' : state) : Prop :=
  tables_eq s s' /\ forall c, conns s' c = if existsb (N.eqb c) l then g (conns s c) else conns s c.

Lemma fold_pointwise (F : state -> N -> state) g :
  (forall s c, pointwise g [c] s (F s c)) ->
  forall l, NoDup l -> forall s, pointwise g l s (fold_left F l s).
Proof.
  intros HF. induction l as [|a l IH]; intros Hnd s; cbn [fold_left].
  - split; [apply tables_eq_refl|]. intros c. reflexivity.
  - inversion Hnd as [|? ? Hn Hnd']. subst.
    destruct (HF s a) as [Hf Hc]. destruct (IH Hnd' (F s a)) as [Hf' Hc'].
    split; [eapply tables_eq_trans; eassumption|].
    intros c. rewrite Hc', Hc. cbn [existsb]. rewrite orb_false_r.
    destruct (c =? a) eqn:E; cbn [orb]; [|reflexivity].
    apply N.eqb_eq in E. subst c. apply existsb_eqb_notin in Hn. now rewrite Hn.
Qed.

Lemma pointwise_comp g1 g2 l s s1 s2 :
  pointwise g1 l s s1 -> pointwise g2 l s1 s2 -> pointwise (fun x => g2 (g1 x)) l s s2.
Proof.
  intros [f1 c1] [f2 c2]. split; [eapply tables_eq_trans; eassumption|].
  intros c. rewrite c2, c1. now destruct (existsb _ _).
Qed.

Lemma pointwise_set_conn s c g y : y = g (conns s c) -> pointwise g [c] s (set_conn s c y).
Proof.
  intros ->. split; [repeat split|]. intros c'. cbn. unfold fupd. rewrite orb_false_r.
  destruct (c' =? c) eqn:E; [|reflexivity]. apply N.eqb_eq in E. now subst.
Qed.

Lemma pointwise_id s c g : g (conns s c) = conns s c -> pointwise g [c] s s.
Proof.
  intros H. split; [apply tables_eq_refl|]. intros c'. cbn. rewrite orb_false_r.
  destruct (c' =? c) eqn:E; [|reflexivity]. apply N.eqb_eq in E. subst. now rewrite H.
Qed.

Definition exit_conn (x : conn) : conn :=
  if is_running (cstate x) && (cancelled x || closed x) then with_cstate x Exited else x.

Lemma exits_pointwise s c :
  pointwise exit_conn [c] s
    (let x := conns s c in
     if is_running (cstate x) && (cancelled x || closed x) then doev s (Exit c) else s).
Proof.
  cbv zeta. destruct (is_running (cstate (conns s c)) && _) eqn:E.
  - unfold doev. change locked_register with true. cbn [step].
    rewrite (proj1 (andb_prop _ _ E)). apply pointwise_set_conn. unfold exit_conn. now rewrite E.
  - apply pointwise_id. unfold exit_conn. now rewrite E.
Qed.

Definition sel (pkt : bool) (x : conn) : list frame := if pkt then pq x else mq x.
Definition put (pkt : bool) (x : conn) (q g : list frame) : conn :=
  if pkt then with_pq_got x q g else with_mq_got x q g.
Definition deliver_conn (pkt : bool) (x : conn) : conn :=
  if is_running (cstate x) then put pkt x [] (got x ++ sel pkt x) else x.

Lemma deliver_all_pointwise pkt fuel : forall s c,
  fuel = length (sel pkt (conns s c)) -> pointwise (deliver_conn pkt) [c] s (deliver_all fuel s c pkt).
Proof.
  induction fuel as [|f IH]; intros s c Hf; cbn [deliver_all].
  - apply pointwise_id. symmetry in Hf. apply length_zero_iff_nil in Hf. unfold deliver_conn.
    destruct (is_running _); [|reflexivity].
    destruct pkt, (conns s c); cbn in *; subst; now rewrite app_nil_r.
  - destruct (is_running (cstate (conns s c))) eqn:Er.
    2:{ change locked_register with true. cbn [step]. rewrite Er. apply pointwise_id. unfold deliver_conn. now rewrite Er. }
    destruct (sel pkt (conns s c)) as [|f0 r] eqn:Ep; [discriminate|].
    set (y := put pkt (conns s c) r (got (conns s c) ++ [f0])).
    assert (Hstep : step locked_register s (Deliver c pkt) = Some (set_conn s c y)).
    { change locked_register with true. cbn [step]. rewrite Er. unfold y. destruct pkt; cbn [sel put] in Ep |- *; now rewrite Ep. }
    rewrite Hstep.
    (* this delivery, then by induction the others, on the connection as this one leaves it *)
    assert (H1 : pointwise (fun _ => y) [c] s (set_conn s c y)) by now apply pointwise_set_conn.
    assert (Hlen : f = length (sel pkt (conns (set_conn s c y) c))).
    { cbn. rewrite fupd_same. unfold y. destruct pkt; cbn in *; lia. }
    destruct (pointwise_comp _ _ _ _ _ _ H1 (IH _ c Hlen)) as [Hfr Hc].
    split; [exact Hfr|]. intros c'. rewrite Hc. cbn [existsb]. rewrite orb_false_r.
    destruct (c' =? c) eqn:E; [|reflexivity]. apply N.eqb_eq in E. subst c'.
    unfold deliver_conn, y. destruct pkt; cbn in *; rewrite Er, Ep, <- app_assoc; reflexivity.
Qed.

Definition drain_conn (x : conn) : conn :=
  if is_running (cstate x)
  then mkConn (eid x) (ver x) (cstate x) (cancelled x) (closed x) (inserted x) (taken x) [] [] (got x ++ pq x ++ mq x)
  else x.

Lemma drain_pointwise s c :
  pointwise drain_conn [c] s
    (let s1 := deliver_all (length (pq (conns s c))) s c true in
     deliver_all (length (mq (conns s1 c))) s1 c false).
Proof.
  cbv zeta.
  destruct (pointwise_comp _ _ _ _ _ _ (deliver_all_pointwise true _ s c eq_refl)
              (deliver_all_pointwise false _ _ c eq_refl)) as [Hf Hc].
  split; [exact Hf|]. intros c'. rewrite Hc. destruct (existsb _ _); [|reflexivity].
  unfold drain_conn, deliver_conn. destruct (is_running (cstate (conns s c'))) eqn:E; cbn; rewrite ?E; [|reflexivity].
  cbn. now rewrite <- app_assoc.
Qed.

Lemma crange_in s c : In c (crange s) <-> c < nconns s.
Proof.
  unfold crange. rewrite in_map_iff. split.
  - intros (x & <- & Hx). apply in_seq in Hx. lia.
  - intros H. exists (N.to_nat c). split; [apply N2Nat.id|]. apply in_seq. lia.
Qed.

Lemma crange_existsb s c : existsb (N.eqb c) (crange s) = (c <? nconns s).
Proof.
  destruct (c <? nconns s) eqn:E.
  - apply existsb_eqb_in, crange_in, N.ltb_lt, E.
  - apply existsb_eqb_notin. rewrite crange_in. apply N.ltb_ge in E. lia.
Qed.

Lemma crange_NoDup s : NoDup (crange s).
Proof.
  unfold crange. apply FinFun.Injective_map_NoDup; [|apply seq_NoDup].
  intros a b H. now apply Nat2N.inj.
Qed.

Lemma settle_exits_spec s : pointwise exit_conn (crange s) s (settle_exits s).
Proof. unfold settle_exits. apply (fold_pointwise _ _ exits_pointwise), crange_NoDup. Qed.

Lemma settle_spec s :
  tables_eq s (settle s) /\
  forall c, conns (settle s) c = if c <? nconns s then drain_conn (exit_conn (conns s c)) else conns s c.
Proof.
  unfold settle. pose proof (settle_exits_spec s) as H1.
  assert (Hcr : crange (settle_exits s) = crange s).
  { unfold crange. destruct H1 as [(_ & hn & _) _]. now rewrite hn. }
  assert (H2 : pointwise drain_conn (crange s) (settle_exits s) (settle_deliver (settle_exits s))).
  { unfold settle_deliver. rewrite Hcr. apply (fold_pointwise _ _ drain_pointwise), crange_NoDup. }
  destruct (pointwise_comp _ _ _ _ _ _ H1 H2) as [Hf Hc]. split; [exact Hf|].
  intros c. rewrite Hc, crange_existsb. reflexivity.
Qed.

Lemma settle_reg s : reg (settle s) = reg s.
Proof. apply (settle_spec s). Qed.
Lemma settle_nconns s : nconns (settle s) = nconns s.
Proof. apply (settle_spec s). Qed.

(* whether a connection stays in its loop through a scheduler round *)
Definition stays (x : conn) : bool := is_running (cstate x) && negb (cancelled x || closed x).

(* A scheduler round on one connection: one that stays in its loop receives everything queued for
   it; a running one that is cancelled or closed leaves its loop, its queues as they are; one whose
   actor is not in its loop is left alone. *)
Lemma settle_conn x :
  drain_conn (exit_conn x) =
  if stays x
  then mkConn (eid x) (ver x) (cstate x) (cancelled x) (closed x) (inserted x) (taken x) [] [] (got x ++ pq x ++ mq x)
  else if is_running (cstate x) then with_cstate x Exited else x.
Proof.
  unfold stays, exit_conn. destruct (is_running (cstate x)) eqn:Er; cbn [andb]; [|unfold drain_conn; now rewrite Er].
  destruct (cancelled x || closed x); cbn [negb]; unfold drain_conn; [reflexivity|now rewrite Er].
Qed.

Lemma settle_taken s c : taken (conns (settle s) c) = taken (conns s c).
Proof.
  destruct (settle_spec s) as [_ ->]. destruct (c <? nconns s); [|reflexivity]. rewrite settle_conn.
  now destruct (stays (conns s c)), (is_running (cstate (conns s c))).
Qed.

Definition queues (x : conn) : list frame := pq x ++ mq x.

(* what [settle] leaves behind and every operation starts from: an actor still in its loop has
   not been told to stop and has nothing queued, and no notice is pending *)
Record Sett (s : state) : Prop := {
  sett_q : forall c, is_running (cstate (conns s c)) = true ->
           (cancelled (conns s c) || closed (conns s c)) = false /\ pq (conns s c) = [] /\ mq (conns s c) = [];
  sett_p : pending s = []
}.

Lemma settle_running s c : Inv s ->
  is_running (cstate (conns (settle s) c)) = true ->
  c < nconns s /\ is_running (cstate (conns s c)) = true /\
  (cancelled (conns s c) || closed (conns s c)) = false.
Proof.
  intros I. destruct (settle_spec s) as [_ ->]. destruct (c <? nconns s) eqn:El.
  - apply N.ltb_lt in El. rewrite settle_conn. unfold stays.
    destruct (is_running (cstate (conns s c))) eqn:Er, (cancelled (conns s c) || closed (conns s c));
      cbn; rewrite ?Er; try discriminate. auto.
  - apply N.ltb_ge in El. destruct (inv_fresh s I c El) as [_ Hfr]. rewrite Hfr. discriminate.
Qed.

Lemma settle_Sett s : Inv s -> pending s = [] -> Sett (settle s).
Proof.
  intros I Hp. constructor; [|destruct (settle_spec s) as [(_ & _ & _ & _ & -> & _) _]; exact Hp].
  intros c H. destruct (settle_running s c I H) as (Hlt & Hr & Hf). apply N.ltb_lt in Hlt.
  destruct (settle_spec s) as [_ ->]. rewrite Hlt, settle_conn. unfold stays. rewrite Hr, Hf. cbn. auto.
Qed.

(* the frames a connection receives in an operation that ends with [settle s'] *)
Definition delivered (s' : state) (c : N) : list frame :=
  if stays (conns s' c) then queues (conns s' c) else [].

Lemma settle_got s' c :
  c < nconns s' -> got (conns (settle s') c) = got (conns s' c) ++ delivered s' c.
Proof.
  intros H. apply N.ltb_lt in H. destruct (settle_spec s') as [_ ->]. rewrite H, settle_conn.
  unfold delivered. destruct (stays _); [reflexivity|].
  destruct (is_running _); cbn; now rewrite app_nil_r.
Qed.

(* a connection leaves its loop only when its client closed or it was told to stop *)
Definition expl_ok (x : conn) : Prop :=
  is_running (cstate x) = true \/ (cancelled x || closed x) = true.
Definition Expl (s : state) : Prop := forall c, c < nconns s -> expl_ok (conns s c).

(* what a script event may do to a connection; a peer-gone notice for X is queued only if G X *)
Definition scr (G : N -> Prop) (x y : conn) : Prop :=
  got y = got x /\ (is_running (cstate y) = true -> is_running (cstate x) = true) /\
  (forall f, In f (mq x) -> In f (mq y)) /\
  (forall X, In (FGone X) (queues y) -> In (FGone X) (queues x) \/ G X) /\
  (expl_ok x -> expl_ok y).

Lemma scr_refl G x : scr G x x.
Proof. repeat split; auto. Qed.
Lemma scr_trans G x y z : scr G x y -> scr G y z -> scr G x z.
Proof.
  intros (a & b & c & d & e) (a' & b' & c' & d' & e'). repeat split; auto; [congruence|].
  intros X HX. destruct (d' X HX) as [H|H]; auto.
Qed.

(* a peer-gone notice for X is queued only by the Notify of a pending notice for X *)
Definition gone_src (s : state) (e : event) (X : N) : Prop :=
  exists k p, e = Notify k /\ nth_error (pending s) (N.to_nat k) = Some (X, p).

Lemma cupd_scr s e c x y : script_ev e -> cupd s e c x y -> scr (gone_src s e) x y.
Proof.
  intros Hs U. destruct U; try contradiction; unfold scr, queues, expl_ok; cbn; repeat split; auto.
  - intros g Hg. apply in_or_app. now left.
  - intros X HX. rewrite app_assoc in HX. apply in_app_or in HX as [HX|[HX|[]]]; [now left|]. subst f.
    destruct e; cbn in H; try contradiction; try (now destruct (H X)).
    destruct H as (X' & p & Hn & E). injection E as <-. right. exists k, p. auto.
  - intros X HX. apply in_app_or in HX as [HX|HX]; [|left; apply in_or_app; auto].
    apply in_app_or in HX as [HX|[HX|[]]]; [left; apply in_or_app; auto|discriminate].
  - intros _. right. apply orb_true_r.
  - destruct (cstate x); discriminate.
  - intros [Hr|Hf]; [|now right]. destruct (cstate x); discriminate.
Qed.

Lemma step_scr s e s' c :
  step true s e = Some s' -> script_ev e ->
  (forall id v, e = Spawn id v -> c <> nconns s) /\ scr (gone_src s e) (conns s c) (conns s' c) \/
  exists id v, e = Spawn id v /\ c = nconns s /\ conns s' c = fresh_conn id v.
Proof.
  intros H Hs.
  assert (Hold : (forall id v, e = Spawn id v -> c <> nconns s) -> scr (gone_src s e) (conns s c) (conns s' c)).
  { apply (step_conn s e (fun _ => scr (gone_src s e))); try assumption.
    - intros; apply scr_refl.
    - intros ? ? ? ?; apply scr_trans.
    - intros c' x y. now apply cupd_scr. }
  destruct e as [id v| | | | | | | | | |]; try (left; split; [discriminate|apply Hold; discriminate]).
  destruct (N.eq_dec c (nconns s)) as [->|Hne].
  - right. exists id, v. cbn in H. injection H as <-. cbn. now rewrite fupd_same.
  - left. split; [now intros|now apply Hold].
Qed.

Lemma step_old_conn s e s' c :
  step true s e = Some s' -> c < nconns s' -> (forall id v, e = Spawn id v -> c <> nconns s) -> c < nconns s.
Proof.
  intros H Hc Hne. destruct (step_frame s e s' H) as (_ & hn & _). rewrite hn in Hc.
  destruct e; try exact Hc. specialize (Hne _ _ eq_refl). lia.
Qed.

Lemma doev_expl s e : script_ev e -> Expl s -> Expl (doev s e).
Proof.
  intros Hs HE. apply doev_rel; [assumption|]. intros s' H c Hc.
  destruct (step_scr s e s' c H Hs) as [(Hne & S)|(id & v & _ & _ & ->)]; [|now left].
  apply S, HE. eapply step_old_conn; eassumption.
Qed.

Lemma srun_expl s s' : srun script_ev s s' -> Expl s -> Expl s'.
Proof. apply srun_inv. intros t e. apply doev_expl. Qed.

Lemma settle_expl s : Expl s -> Expl (settle s).
Proof.
  intros H c Hc. rewrite settle_nconns in Hc. specialize (H c Hc). apply N.ltb_lt in Hc.
  destruct (settle_spec s) as [_ ->]. rewrite Hc, settle_conn. unfold expl_ok, stays in *.
  destruct (is_running (cstate (conns s c))) eqn:Er, (cancelled (conns s c) || closed (conns s c)) eqn:Ec;
    cbn; rewrite ?Er, ?Ec; auto.
Qed.

(* what a connection that exists keeps through a run of script events *)
Definition oldrel (s s' : state) (c : N) : Prop :=
  got (conns s' c) = got (conns s c) /\
  (is_running (cstate (conns s' c)) = true -> is_running (cstate (conns s c)) = true) /\
  (forall f, In f (mq (conns s c)) -> In f (mq (conns s' c))) /\ nconns s <= nconns s'.

Lemma srun_oldrel s s' c : srun script_ev s s' -> c < nconns s -> oldrel s s' c.
Proof.
  intros R. apply (srun_rel script_ev (fun s t => c < nconns s -> oldrel s t c)); try assumption.
  - intros t _. repeat split; auto. lia.
  - intros t u v H1 H2 Hc. destruct (H1 Hc) as (a1 & a2 & a3 & a4).
    destruct H2 as (b1 & b2 & b3 & b4); [lia|]. repeat split; auto; [congruence|lia].
  - intros t e He Hc. apply doev_rel; [repeat split; auto; lia|]. intros t' H.
    destruct (step_scr t e t' c H He) as [(_ & a1 & a2 & a3 & _)|(id & v & _ & -> & _)]; [|lia].
    repeat split; auto. eapply step_nconns; eassumption.
Qed.

(* the frames received so far stay, or the connection is new *)
Definition gotrel (x y : conn) : Prop := got y = got x \/ got y = [].

Lemma srun_gotrel s s' c : srun script_ev s s' -> gotrel (conns s c) (conns s' c).
Proof.
  apply (srun_rel script_ev (fun s t => gotrel (conns s c) (conns t c))).
  - now left.
  - intros t u v Ha [b|b]; [unfold gotrel; rewrite b; exact Ha|right; exact b].
  - intros t e He. apply doev_rel; [now left|]. intros t' H.
    destruct (step_scr t e t' c H He) as [(_ & a1 & _)|(id & v & _ & _ & ->)]; [now left|now right].
Qed.

Lemma srun_notify_reg s s' : srun notify_ev s s' -> reg s' = reg s.
Proof.
  apply (srun_rel notify_ev (fun s t => reg t = reg s)).
  - reflexivity.
  - intros t u v H ->. exact H.
  - intros t e He. apply doev_rel; [reflexivity|]. intros t' H.
    destruct (step_frame t e t' H) as (_ & _ & _ & hr & _). destruct e; try destruct He. exact hr.
Qed.

(* [gclean]: no peer-gone notice is in flight; [gsafe]: only for endpoints without an entry *)
Definition gclean (s : state) : Prop :=
  (forall c X, is_running (cstate (conns s c)) = true -> ~ In (FGone X) (queues (conns s c))) /\
  pending s = [].
Definition gsafe (s : state) : Prop :=
  (forall c X, is_running (cstate (conns s c)) = true -> In (FGone X) (queues (conns s c)) -> reg s X = []) /\
  (forall X p, In (X, p) (pending s) -> reg s X = []).

Lemma Sett_gclean s : Sett s -> gclean s.
Proof.
  intros [Hq Hp]. split; [|assumption]. intros c X Hr. destruct (Hq c Hr) as (_ & e1 & e2).
  unfold queues. rewrite e1, e2. auto.
Qed.

Lemma gclean_gsafe s : gclean s -> gsafe s.
Proof. intros [H1 H2]. split; [intros c X Hr Hin; now apply H1 in Hin|rewrite H2; contradiction]. Qed.

(* the script events that leave the pending notices alone *)
Definition quiet_ev (e : event) : Prop :=
  match e with Unregister _ | Notify _ | Exit _ | Deliver _ _ => False | _ => True end.

Lemma quiet_script e : quiet_ev e -> script_ev e.
Proof. now destruct e. Qed.

Lemma doev_quiet_pending s e : quiet_ev e -> pending (doev s e) = pending s.
Proof.
  intros He. apply doev_rel; [reflexivity|]. intros s' H.
  destruct (step_frame s e s' H) as (_ & _ & _ & _ & hp & _). now destruct e.
Qed.

Lemma doev_no_gone s e :
  script_ev e -> ~ notify_ev e ->
  (forall c X, is_running (cstate (conns s c)) = true -> ~ In (FGone X) (queues (conns s c))) ->
  forall c X, is_running (cstate (conns (doev s e) c)) = true -> ~ In (FGone X) (queues (conns (doev s e) c)).
Proof.
  intros Hs Hn H1. apply doev_rel; [assumption|]. intros s' H c X Hr Hin.
  destruct (step_scr s e s' c H Hs) as [(_ & _ & hr & _ & hq & _)|(id & v & _ & _ & Hf)].
  - destruct (hq X Hin) as [Hold|(k & p & -> & _)]; [apply (H1 c X); auto|now apply Hn].
  - rewrite Hf in Hin. contradiction.
Qed.

Lemma srun_quiet_gclean s s' : srun quiet_ev s s' -> gclean s -> gclean s'.
Proof.
  apply srun_inv. intros t e He [H1 H2]. split; [|now rewrite doev_quiet_pending].
  apply doev_no_gone; [apply quiet_script, He|intros Hn; destruct e; try exact Hn; exact He|exact H1].
Qed.

Lemma unregister_gsafe s c : Inv s -> gclean s -> gsafe (doev s (Unregister c)).
Proof.
  intros I [H1 H2]. split.
  - intros c' X Hr Hin. exfalso. revert Hin. now apply doev_no_gone.
  - apply doev_rel; [rewrite H2; contradiction|]. intros s' E X p Hin.
    destruct (peer_gone_only_after_last s _ s' X p I E Hin) as (c' & _ & _ & _ & Hr & _); [|exact Hr].
    rewrite H2. auto.
Qed.

Lemma notify_gsafe s k : gsafe s -> gsafe (doev s (Notify k)).
Proof.
  intros [H1 H2]. apply doev_rel; [now split|]. intros s' E.
  destruct (step_frame s _ s' E) as (_ & _ & _ & hr & hp & _). split.
  - intros c X Hr Hin. rewrite hr.
    destruct (step_scr s _ s' c E I) as [(_ & _ & hrun & _ & hq & _)|(id & v & Hx & _)]; [|discriminate Hx].
    destruct (hq X Hin) as [Hold|(k' & p & _ & Hn)]; [apply (H1 c X); auto|].
    apply (H2 X p). eapply nth_error_In; eassumption.
  - intros X p Hin. rewrite hr. apply (H2 X p). rewrite hp in Hin. eapply remove_nth_in; eassumption.
Qed.

Lemma notify_all_gsafe fuel s : gsafe s -> gsafe (notify_all fuel s).
Proof.
  apply (srun_inv notify_ev gsafe); [|apply notify_all_srun].
  intros t e He. destruct e; try destruct He. apply notify_gsafe.
Qed.

Lemma notify_all_pending fuel : forall s, fuel = length (pending s) -> pending (notify_all fuel s) = [].
Proof.
  induction fuel as [|f IH]; intros s Hf; cbn [notify_all].
  - now destruct (pending s).
  - destruct (pending s) as [|[gone peer] r] eqn:Ep; [assumption|]. apply IH.
    pose proof (notify_head s gone peer r Ep) as E. rewrite (doev_some _ _ _ E).
    destruct (step_frame s _ _ E) as (_ & _ & _ & _ & -> & _). rewrite Ep. cbn in *. lia.
Qed.

Inductive simple_ev : event -> Prop :=
| se_spawn id v : simple_ev (Spawn id v)
| se_insert c : simple_ev (Insert c)
| se_close c : simple_ev (Close c)
| se_send a d t : simple_ev (Send a d t)
| se_disc id o : simple_ev (Disconnect id o).

Lemma simple_quiet e : simple_ev e -> quiet_ev e.
Proof. now destruct 1. Qed.
Lemma shut_quiet e : shut_ev e -> quiet_ev e.
Proof. now destruct e. Qed.

(* the state an operation reaches before its final [settle] *)
Inductive mid (s : state) : state -> Prop :=
| mid_ev e : simple_ev e -> mid s (doev s e)
| mid_reg id v : mid s (doev (doev s (Spawn id v)) (Insert (nconns s)))
| mid_unreg c : mid s (unregister_full s c)
| mid_ins_unreg c x : eid (conns s c) = eid (conns s x) -> mid s (unregister_full (doev s (Insert c)) x)
| mid_shut : mid s (shut_all s).

(* an operation is a run of events that leave the pending notices alone, then at most one whole
   unregister *)
Lemma mid_phases s s' : mid s s' ->
  exists t, srun quiet_ev s t /\ (s' = t \/ exists x, s' = unregister_full t x).
Proof.
  intros M. destruct M.
  - exists (doev s e). split; [now apply srun_one, simple_quiet|now left].
  - exists (doev (doev s (Spawn id v)) (Insert (nconns s))).
    split; [apply srun_step; [apply (srun_one quiet_ev)|]; exact I|now left].
  - exists s. split; [apply srun_refl|right; eauto].
  - exists (doev s (Insert c)). split; [apply (srun_one quiet_ev s (Insert c) I)|right; eauto].
  - exists (shut_all s). split; [|now left]. eapply srun_sub; [|apply shut_all_srun]. apply shut_quiet.
Qed.

Lemma mid_srun s s' : mid s s' -> srun script_ev s s'.
Proof.
  intros M. destruct (mid_phases s s' M) as (t & Q & Hs').
  apply (srun_sub quiet_ev script_ev s t quiet_script) in Q.
  destruct Hs' as [->|(x & ->)]; [exact Q|]. eapply srun_trans; [exact Q|apply unregister_full_script].
Qed.

Lemma mid_reach s s' : reach s -> mid s s' -> reach s'.
Proof. intros H M. eapply srun_reach; [apply mid_srun, M|assumption]. Qed.

Lemma mid_gsafe s s' : reach s -> Sett s -> mid s s' -> gsafe s' /\ pending s' = [].
Proof.
  intros R S M. destruct (mid_phases s s' M) as (t & Q & Hs').
  pose proof (srun_quiet_gclean s t Q (Sett_gclean s S)) as G.
  destruct Hs' as [->|(x & ->)]; [split; [now apply gclean_gsafe|apply G]|].
  unfold unregister_full. split; [|now apply notify_all_pending].
  apply notify_all_gsafe, unregister_gsafe; [|exact G]. eapply reach_Inv, srun_reach; eassumption.
Qed.

(* the invariant of the script semantics, between operations; [si_def]: an unregister is deferred
   only behind a parked register of its endpoint, which is what makes its release a shape of [mid] *)
Record SInv (ss : sstate) : Prop := {
  si_reach : reach (st ss);
  si_sett : Sett (st ss);
  si_expl : Expl (st ss);
  si_def : forall x, deferred ss = Some x ->
           exists w, win ss = Some w /\ eid (conns (st ss) w) = eid (conns (st ss) x)
}.

Lemma SInv_settle ss s' w :
  SInv ss -> mid (st ss) s' -> SInv (mkSS (settle s') w None).
Proof.
  intros [R S E D] M. pose proof (mid_reach _ _ R M) as R'. constructor; cbn [st win deferred].
  - now apply settle_reach.
  - apply settle_Sett; [now apply reach_Inv|now apply (mid_gsafe (st ss))].
  - apply settle_expl. eapply srun_expl; [apply mid_srun|]; eassumption.
  - discriminate.
Qed.

Lemma step_flags s e s' c :
  step true s e = Some s' -> (forall id v, e = Spawn id v -> c <> nconns s) ->
  (cancelled (conns s c) = true -> cancelled (conns s' c) = true) /\
  (taken (conns s c) = true -> taken (conns s' c) = true).
Proof.
  intros H Hne.
  apply (step_conn s e (fun _ x y => (cancelled x = true -> cancelled y = true) /\
                                     (taken x = true -> taken y = true)) s' c);
    [tauto|intros; tauto| |assumption..].
  intros c' x y U. destruct U; cbn; auto.
Qed.

Lemma shut_all_reg s X :
  reg (shut_all s) X = reg s X \/
  reg (shut_all s) X = [] /\ forall c, In c (reg s X) -> taken (conns (shut_all s) c) = true.
Proof.
  apply (srun_inv shut_ev (fun t => reg t X = reg s X \/
                                    reg t X = [] /\ forall c, In c (reg s X) -> taken (conns t c) = true))
    with (s := s); [|apply shut_all_srun|now left].
  intros t e He J. apply doev_rel; [exact J|]. intros t' H.
  assert (Hkeep : forall c, taken (conns t c) = true -> taken (conns t' c) = true).
  { intros c. apply (step_flags t e t' c H). intros id v ->. destruct He. }
  destruct e; try destruct He.
  - destruct (shut_take_effect t id t' H) as (h1 & h2 & _ & _ & h5 & _).
    destruct (N.eq_dec X id) as [->|Hne].
    + right. split; [exact h1|]. destruct J as [<-|[_ Ht]]; auto.
    + rewrite (h2 X Hne). destruct J as [Hr|[Hr Ht]]; auto.
  - destruct (step_frame _ _ _ H) as (_ & _ & _ & -> & _). destruct J as [Hr|[Hr Ht]]; auto.
Qed.

Definition op_result (ss ss1 : sstate) : Prop :=
  st ss1 = st ss \/ exists s', mid (st ss) s' /\ st ss1 = settle s'.

(* An operation is skipped, or runs one of the shapes of [mid] and then the scheduler, or is the
   register that releases a deferred unregister, or defers an unregister the parked register blocks. *)
Lemma exec_op_cases (P : sstate -> Prop) ss o :
  P ss ->
  (forall s' w, mid (st ss) s' -> P (mkSS (settle s') w None)) ->
  (forall w x, win ss = Some w -> deferred ss = Some x ->
     P (mkSS (settle (unregister_full (doev (st ss) (Insert w)) x)) None None)) ->
  (forall w c, win ss = Some w -> eid (conns (st ss) w) = eid (conns (st ss) c) ->
     P (mkSS (st ss) (win ss) (Some c))) ->
  P (fst (exec_op ss o)).
Proof.
  intros Hskip Hmid Hrel Hdef. unfold exec_op, skip. change locked_register with true.
  destruct (deferred ss) as [x|] eqn:Ed.
  - destruct o; try exact Hskip. destruct (win ss) as [w|] eqn:Ew; [|exact Hskip].
    destruct (c =? w) eqn:E; [|exact Hskip]. apply N.eqb_eq in E. subst c. now apply Hrel.
  - destruct o.
    + destruct (win ss); [exact Hskip|]. apply Hmid, mid_ev. constructor.
    + destruct (win ss) as [w|]; [|exact Hskip]. destruct (c =? w); [|exact Hskip]. apply Hmid, mid_ev. constructor.
    + destruct (win ss); [exact Hskip|]. apply Hmid, mid_reg.
    + destruct (_ && _); [|exact Hskip]. apply Hmid, mid_ev. constructor.
    + destruct (_ && _); [|exact Hskip]. destruct (win ss) as [w|] eqn:Ew; [|apply Hmid, mid_unreg].
      destruct (eid (conns (st ss) w) =? eid (conns (st ss) c)) eqn:E; [|exact Hskip].
      apply N.eqb_eq in E. now apply (Hdef w).
    + destruct (win ss); [exact Hskip|]. destruct (_ && _); [|exact Hskip]. apply Hmid, mid_ev. constructor.
    + destruct (win ss); [exact Hskip|]. destruct (match o with Some c => _ | None => true end); [|exact Hskip].
      apply Hmid, mid_ev. constructor.
    + destruct (win ss); [exact Hskip|]. apply Hmid, mid_shut.
Qed.

Lemma exec_op_mid ss o : SInv ss -> op_result ss (fst (exec_op ss o)) /\ SInv (fst (exec_op ss o)).
Proof.
  intros HS. pose proof HS as [R S EX D].
  assert (Hmid : forall s' w, mid (st ss) s' ->
            op_result ss (mkSS (settle s') w None) /\ SInv (mkSS (settle s') w None)).
  { intros s' w M. split; [right; eauto|eapply SInv_settle; eassumption]. }
  apply exec_op_cases; [split; [now left|assumption]|exact Hmid| |].
  - intros w x Hw Hx. destruct (D x Hx) as (w' & Hw' & He). apply Hmid, mid_ins_unreg. congruence.
  - intros w c Hw He. split; [now left|]. constructor; cbn [st win deferred]; auto.
    intros x Hx. injection Hx as <-. eauto.
Qed.

Lemma exec_op_reach ss o : reach (st ss) -> reach (st (fst (exec_op ss o))).
Proof.
  intros H. apply exec_op_cases; cbn [st]; auto.
  - intros s' w M. eapply settle_reach, mid_reach; eassumption.
  - intros w x _ _. now apply settle_reach, unregister_full_reach, doev_reach.
Qed.

Lemma exec_ops_reach l : forall ss, reach (st ss) -> Forall (fun p => reach (st (fst p))) (exec_ops ss l).
Proof.
  induction l as [|o l IH]; intros ss H; cbn [exec_ops].
  - destruct (win ss); [|constructor].
    pose proof (exec_op_reach ss (OInsert n) H) as H1.
    destruct (exec_op ss (OInsert n)) as [ss1 r]. constructor; [exact H1|constructor].
  - pose proof (exec_op_reach ss o H) as H1.
    destruct (exec_op ss o) as [ss1 r]. constructor; [exact H1|]. apply IH, H1.
Qed.

Lemma gone_ids_in X l : In X (gone_ids l) <-> In (FGone X) l.
Proof.
  unfold gone_ids. rewrite in_flat_map. split.
  - intros (f & Hf & Hx). destruct f; try contradiction. destruct Hx as [<-|[]]. assumption.
  - intros H. exists (FGone X). split; [assumption|now left].
Qed.

(* the clauses of the monitor as propositions, on arbitrary observations (each read out in iroh's
   terms at C06_monitor_is_property) *)
Definition obs_registry_spec (s : state) (ob : obs) : Prop :=
  forall snap, o_snap ob = Some snap ->
    (forall e, In e snap -> fst (fst e) < 4) /\
    forall id, In id ids -> stack_of_snap snap id = expected_stack s (o_states ob) id.

Lemma registry_ok_spec s ob : registry_ok s ob = true <-> obs_registry_spec s ob.
Proof.
  unfold registry_ok, obs_registry_spec. apply some_iff. intros snap. apply andb_iff.
  - apply forallb_iff. intros e. apply N.ltb_lt.
  - apply forallb_iff. intros id. apply list_eqb_iff, N.eqb_eq.
Qed.

Definition obs_gone_only_after_last (s1 : state) (ob : obs) : Prop :=
  forall c l X, In (c, l) (o_news ob) -> In (FGone X) l -> obs_stack s1 ob X = [].

Definition obs_gone_delivered (s0 s1 : state) (ob : obs) : Prop :=
  forall X p a rest, In X ids -> reg s0 X <> [] ->
    (forall c, In c (reg s0 X) -> taken (conns s1 c) = false) ->   (* not taken out by a shutdown *)
    obs_stack s1 ob X = [] -> In p (sent s0 X) ->
    obs_stack s1 ob p = a :: rest -> obs_running ob a = true -> 1 <= cap s0 ->
    count_frame (FGone X) (news_for ob a) = 1.

Lemma gone_only_after_last_spec s1 ob :
  gone_only_after_last s1 ob = true <-> obs_gone_only_after_last s1 ob.
Proof.
  eapply iff_trans.
  { apply forallb_iff. intros e. apply forallb_iff. intros x. apply nil_iff. }
  split.
  - intros H c l X Hin Hf. apply (H (c, l) Hin), gone_ids_in, Hf.
  - intros H [c l] Hin X HX. apply (H c l X Hin), gone_ids_in, HX.
Qed.

Lemma gone_delivered_spec s0 s1 ob :
  gone_delivered s0 s1 ob = true <-> obs_gone_delivered s0 s1 ob.
Proof.
  unfold obs_gone_delivered. eapply iff_trans.
  { apply forallb_iff. intros X. apply impb_and, impb_and.
    apply impb_iff; [apply negb_iff, nil_iff|].
    apply impb_iff; [apply forallb_iff; intros c; apply negb_true_iff|].
    apply impb_iff; [apply nil_iff|].
    apply forallb_iff. intros p. apply cons_iff. intros a rest. apply impb_and.
    apply impb_iff; [apply iff_refl|]. apply impb_iff; [apply N.leb_le|]. apply N.eqb_eq. }
  split; intros H **; eapply H; eassumption.
Qed.

Definition obs_took_over_told (s0 s1 : state) (ob : obs) : Prop :=
  forall id a rest0 c rest1, In id ids ->
    reg s0 id = a :: rest0 -> obs_stack s1 ob id = c :: a :: rest1 -> ~ In c (reg s0 id) ->
    obs_running ob a = true -> 1 <= cap s0 ->
    In (status_frame (ver (conns s0 a)) 1) (news_for ob a).

Definition obs_healthy_told (s0 s1 : state) (ob : obs) : Prop :=
  forall id c p rest0 rest1, In id ids ->
    reg s0 id = c :: p :: rest0 -> obs_stack s1 ob id = p :: rest1 -> ~ In c (obs_stack s1 ob id) ->
    obs_running ob p = true -> 1 <= cap s0 ->
    In (status_frame (ver (conns s0 p)) 0) (news_for ob p).

Lemma frame_eqb_iff a b : frame_eqb a b = true <-> a = b.
Proof.
  split.
  - destruct a, b; cbn; try discriminate; intros H.
    + apply N.eqb_eq in H. now subst.
    + apply N.eqb_eq in H. now subst.
    + apply N.eqb_eq in H. now subst.
    + apply andb_prop in H as [h1 h2]. apply N.eqb_eq in h1, h2. now subst.
  - intros <-. destruct a; cbn; rewrite ?N.eqb_refl; reflexivity.
Qed.

Lemma took_over_told_spec s0 s1 ob : took_over_told s0 s1 ob = true <-> obs_took_over_told s0 s1 ob.
Proof.
  eapply iff_trans.
  { apply forallb_iff. intros id.
    apply cons_iff. intros a rest0. apply cons_iff. intros c l. apply cons_iff. intros a' rest1.
    apply impb_and, impb_and, impb_and.
    apply impb_iff; [apply N.eqb_eq|]. apply impb_iff; [apply negb_iff, existsb_eqb_in|].
    apply impb_iff; [apply iff_refl|]. apply impb_iff; [apply N.leb_le|]. apply (mem_iff _ frame_eqb_iff). }
  split.
  - intros H id a rest0 c rest1 Hid Hreg Hst. exact (H id Hid a rest0 Hreg c _ Hst a rest1 eq_refl eq_refl).
  - intros H id Hid a rest0 Hreg c l Hst a' rest1 -> ->. exact (H id a rest0 c rest1 Hid Hreg Hst).
Qed.

Lemma healthy_told_spec s0 s1 ob : healthy_told s0 s1 ob = true <-> obs_healthy_told s0 s1 ob.
Proof.
  eapply iff_trans.
  { apply forallb_iff. intros id.
    apply cons_iff. intros c l. apply cons_iff. intros p rest0. apply cons_iff. intros p' rest1.
    apply impb_and, impb_and, impb_and.
    apply impb_iff; [apply N.eqb_eq|]. apply impb_iff; [apply negb_iff, existsb_eqb_in|].
    apply impb_iff; [apply iff_refl|]. apply impb_iff; [apply N.leb_le|]. apply (mem_iff _ frame_eqb_iff). }
  split.
  - intros H id c p rest0 rest1 Hid Hreg Hst. exact (H id Hid c _ Hreg p rest0 eq_refl p rest1 Hst eq_refl).
  - intros H id Hid c l Hreg p rest0 -> p' rest1 Hst ->. exact (H id c p rest0 rest1 Hid Hreg Hst).
Qed.

Definition obs_ends_explained (s1 : state) (ob : obs) : Prop :=
  forall c, c < nconns s1 -> obs_running ob c = false ->
    cancelled (conns s1 c) = true \/ closed (conns s1 c) = true.

Lemma ends_explained_spec s1 ob : ends_explained s1 ob = true <-> obs_ends_explained s1 ob.
Proof.
  unfold ends_explained, obs_ends_explained. rewrite forallb_forall. split.
  - intros H c Hc Hr. apply crange_in in Hc. specialize (H c Hc). rewrite Hr in H. cbn [orb] in H.
    now apply orb_true_iff.
  - intros H c Hc. apply crange_in in Hc. destruct (obs_running ob c) eqn:Er; [reflexivity|].
    cbn [orb]. apply orb_true_iff. now apply H.
Qed.

Definition obs_step_spec (s0 s1 : state) (ob : obs) : Prop :=
  obs_registry_spec s1 ob /\ obs_gone_only_after_last s1 ob /\ obs_gone_delivered s0 s1 ob /\
  obs_took_over_told s0 s1 ob /\ obs_healthy_told s0 s1 ob /\ obs_ends_explained s1 ob.

Lemma step_ok_spec s0 s1 ob : step_ok s0 s1 ob = true <-> obs_step_spec s0 s1 ob.
Proof.
  unfold step_ok, obs_step_spec. repeat apply andb_assoc_iff.
  repeat apply andb_iff; [apply registry_ok_spec|apply gone_only_after_last_spec|apply gone_delivered_spec|
    apply took_over_told_spec|apply healthy_told_spec|apply ends_explained_spec].
Qed.

Definition news_fn (s0 s1 : state) (c : N) : list frame :=
  skipn (length (got (conns s0 c))) (got (conns s1 c)).

Lemma news_for_model ss0 ss1 r c :
  news_for (observe ss0 ss1 r) c = if c <? nconns (st ss1) then news_fn (st ss0) (st ss1) c else [].
Proof.
  unfold news_for, observe, news_of, news_fn. cbn [o_news].
  rewrite (find_flat_map_key fst) by (intros i; now destruct (skipn _ _)).
  rewrite crange_existsb. destruct (_ <? _); [|reflexivity]. now destruct (skipn _ _).
Qed.

Lemma news_of_in s0 s1 c l :
  In (c, l) (news_of s0 s1) -> c < nconns s1 /\ l = news_fn s0 s1 c.
Proof.
  unfold news_of. intros H. apply in_flat_map in H as (c' & Hc & Hin).
  fold (news_fn s0 s1 c') in Hin. destruct (news_fn s0 s1 c') eqn:E; [contradiction|].
  destruct Hin as [Hin|[]]. injection Hin as <- <-. split; [now apply crange_in|now rewrite E].
Qed.

Lemma news_of_same s : news_of s s = [].
Proof.
  unfold news_of. induction (crange s) as [|a l IH]; cbn [flat_map]; [reflexivity|].
  now rewrite skipn_all.
Qed.

(* what a connection receives in an operation is what is queued for it before the final settle *)
Lemma news_settle s0 s' c f :
  srun script_ev s0 s' -> c < nconns s' -> In f (news_fn s0 (settle s') c) -> In f (delivered s' c).
Proof.
  intros R Hc. unfold news_fn. rewrite settle_got by assumption.
  destruct (srun_gotrel s0 s' c R) as [H|H]; rewrite H.
  - now rewrite skipn_app_length.
  - cbn [app]. intros Hf. rewrite <- (firstn_skipn (length (got (conns s0 c)))). apply in_or_app. now right.
Qed.

(* ... all of it, for a connection that existed before and is running afterwards *)
Lemma news_old s0 s' a :
  Inv s' -> srun script_ev s0 s' -> a < nconns s0 -> is_running (cstate (conns (settle s') a)) = true ->
  news_fn s0 (settle s') a = queues (conns s' a) /\ is_running (cstate (conns s' a)) = true.
Proof.
  intros I R Ha Hrun. destruct (settle_running s' a I Hrun) as (Hlt & Hr & Hcc).
  destruct (srun_oldrel s0 s' a R Ha) as (hg & _). split; [|exact Hr].
  unfold news_fn. rewrite settle_got by assumption. rewrite hg, skipn_app_length by reflexivity.
  unfold delivered, stays. now rewrite Hr, Hcc.
Qed.

Lemma obs_running_model ss0 ss1 r a :
  obs_running (observe ss0 ss1 r) a = (a <? nconns (st ss1)) && is_running (cstate (conns (st ss1) a)).
Proof.
  unfold obs_running, observe. cbn [o_states]. destruct (a <? nconns (st ss1)) eqn:E.
  - apply N.ltb_lt in E. rewrite nth_states by assumption. now destruct (cstate (conns (st ss1) a)).
  - apply N.ltb_ge in E. rewrite nth_overflow; [reflexivity|].
    unfold states_of, crange. rewrite !map_length, seq_length. lia.
Qed.

Lemma model_news ss0 ss1 r s' a :
  reach (st ss0) -> mid (st ss0) s' -> st ss1 = settle s' -> a < nconns (st ss0) ->
  obs_running (observe ss0 ss1 r) a = true ->
  news_for (observe ss0 ss1 r) a = queues (conns s' a) /\ is_running (cstate (conns s' a)) = true.
Proof.
  intros R M Hs' Ha Hrun. rewrite obs_running_model in Hrun. apply andb_prop in Hrun as [Hlt Hrun].
  rewrite news_for_model, Hlt. rewrite Hs' in *.
  apply news_old; [apply reach_Inv, (mid_reach _ _ R M)|apply mid_srun, M|assumption..].
Qed.

Lemma obs_stack_model ss0 ss1 r id :
  Inv (st ss1) ->
  obs_stack (st ss1) (observe ss0 ss1 r) id =
  match win ss1 with
  | None => if existsb (N.eqb id) ids then reg (st ss1) id else []
  | Some _ => reg (st ss1) id
  end.
Proof.
  intros I. unfold obs_stack, observe. cbn [o_snap o_states]. destruct (win ss1).
  - now apply expected_stack_model.
  - apply stack_of_snapshot_any.
Qed.

Lemma obs_stack_model_nil ss0 ss1 r id :
  Inv (st ss1) -> reg (st ss1) id = [] -> obs_stack (st ss1) (observe ss0 ss1 r) id = [].
Proof. intros I H. rewrite obs_stack_model, H by assumption. destruct (win ss1); [reflexivity|now destruct (existsb _ _)]. Qed.

Lemma obs_stack_model_ids ss0 ss1 r id :
  Inv (st ss1) -> In id ids -> obs_stack (st ss1) (observe ss0 ss1 r) id = reg (st ss1) id.
Proof.
  intros I H. rewrite obs_stack_model by assumption. destruct (win ss1); [reflexivity|].
  apply existsb_eqb_in in H. now rewrite H.
Qed.

Lemma obs_stack_model_cons ss0 ss1 r id a rest :
  Inv (st ss1) -> obs_stack (st ss1) (observe ss0 ss1 r) id = a :: rest -> reg (st ss1) id = a :: rest.
Proof.
  intros I. rewrite obs_stack_model by assumption. destruct (win ss1); [auto|].
  destruct (existsb _ _); [auto|discriminate].
Qed.

Lemma gone_only_after_last_model ss0 ss1 r :
  SInv ss0 -> op_result ss0 ss1 -> Inv (st ss1) ->
  gone_only_after_last (st ss1) (observe ss0 ss1 r) = true.
Proof.
  intros [R S EX D] Hop I. apply gone_only_after_last_spec. intros c l X Hin Hf.
  apply obs_stack_model_nil; [assumption|]. cbn [observe o_news] in Hin.
  destruct Hop as [Hsame|(s' & M & Hs')]; [rewrite Hsame, news_of_same in Hin; contradiction|].
  rewrite Hs' in *. apply news_of_in in Hin as [Hc ->].
  rewrite settle_reg. rewrite settle_nconns in Hc.
  apply (news_settle _ _ _ _ (mid_srun _ _ M) Hc) in Hf. unfold delivered, stays in Hf.
  destruct (is_running (cstate (conns s' c))) eqn:Er; [|contradiction].
  destruct (negb _); [|contradiction]. apply (proj1 (mid_gsafe _ _ R S M)) in Hf; assumption.
Qed.

Lemma unregister_full_reg s x i : Inv s ->
  reg (unregister_full s x) i = reg s i \/
  ((exists sa, step true s (Unregister x) = Some sa) /\ i = eid (conns s x) /\
   reg (unregister_full s x) i = filter (fun y => negb (y =? x)) (reg s i)).
Proof.
  intros I. unfold unregister_full.
  rewrite (srun_notify_reg _ _ (notify_all_srun (length (pending (doev s (Unregister x)))) (doev s (Unregister x)))).
  apply doev_rel; [now left|]. intros sa E.
  destruct (step_frame s _ sa E) as (_ & _ & _ & (_ & ->) & _).
  destruct (i =? eid (conns s x)) eqn:Ei; [|now left]. apply N.eqb_eq in Ei. right.
  rewrite unreg_list_filter by now apply Inv_reg_NoDup. eauto.
Qed.

Lemma unregister_full_incl s x i c : Inv s -> In c (reg (unregister_full s x) i) -> In c (reg s i).
Proof.
  intros I. destruct (unregister_full_reg s x i I) as [->|(_ & _ & ->)]; [auto|]. intros H. now apply filter_In in H.
Qed.

Lemma filter_ne_nil (x : N) l : NoDup l -> filter (fun y => negb (y =? x)) l = [] -> l = [] \/ l = [x].
Proof.
  intros Hnd H. destruct l as [|a r]; [now left|]. right. cbn in H.
  destruct (a =? x) eqn:E; cbn in H; [|discriminate]. apply N.eqb_eq in E. subst a.
  inversion Hnd as [|? ? Hn _]. rewrite filter_id_notin in H by assumption. now subst.
Qed.

(* what an operation does, before its final [settle], to the entry of i: nothing; a connection
   registered in front of it (the displaced one is told, if its queue has room); the unregister of
   one of its connections, taken in s (the promoted one is told likewise); or a shutdown takes it *)
Inductive entry_op (s s' : state) (i : N) : Prop :=
| eo_same : reg s' i = reg s i -> entry_op s s' i
| eo_ins c r : reg s' i = c :: r -> (forall b, In b r -> In b (reg s i)) -> ~ In c (reg s i) ->
    (forall a rest, reg s i = a :: rest -> room s a ->
       In (status_frame (ver (conns s a)) 1) (mq (conns s' a))) ->
    entry_op s s' i
| eo_unreg x sa : s' = unregister_full s x -> step true s (Unregister x) = Some sa -> eid (conns s x) = i ->
    reg s' i = filter (fun y => negb (y =? x)) (reg s i) ->
    (forall p rest, reg s i = x :: p :: rest -> room s p ->
       In (status_frame (ver (conns s p)) 0) (mq (conns s' p))) ->
    entry_op s s' i
| eo_shut : s' = shut_all s -> reg s' i = [] -> (forall c, In c (reg s i) -> taken (conns s' c) = true) ->
    entry_op s s' i.

(* a register taken in a state t that has the entries, the capacity and the connections of s *)
Lemma insert_entry s t c u i :
  Inv s -> Inv t -> reg t = reg s -> cap t = cap s -> (forall a, a < nconns s -> conns t a = conns s a) ->
  step true t (Insert c) = Some u ->
  i <> eid (conns t c) /\ reg u i = reg s i \/
  i = eid (conns t c) /\ reg u i = c :: reg s i /\ ~ In c (reg s i) /\
  forall a rest, reg s i = a :: rest -> room s a -> In (status_frame (ver (conns s a)) 1) (mq (conns u a)).
Proof.
  intros I It Hr Hcap Hold E. destruct (step_frame t _ u E) as (_ & _ & _ & (_ & _ & hr) & _).
  rewrite hr, Hr. destruct (i =? eid (conns t c)) eqn:Ei; [right|left; split; [now apply N.eqb_neq|reflexivity]].
  apply N.eqb_eq in Ei. split; [exact Ei|]. split; [reflexivity|].
  split; [rewrite <- Hr; now apply (insert_fresh t c u i It E)|].
  intros a rest Ha Hroom.
  assert (Hlt : a < nconns s) by (apply (registered_lt s i a I); rewrite Ha; now left).
  destruct (displaced_is_told t c u a rest It E) as [_ Hmq]; [now rewrite <- Ei, Hr|].
  rewrite <- (Hold a Hlt), Hmq; [apply in_or_app; right; now left|].
  unfold room. now rewrite (Hold a Hlt), Hcap.
Qed.

Lemma mid_entry s s' i : reach s -> mid s s' -> entry_op s s' i.
Proof.
  intros R M. pose proof (reach_Inv s R) as I.
  assert (Hun : forall x, entry_op s (unregister_full s x) i).
  { intros x. destruct (unregister_full_reg s x i I) as [Hr|((sa & E) & -> & Hr)]; [now apply eo_same|].
    eapply eo_unreg; eauto. intros p rest Hreg Hroom.
    destruct (promoted_is_told s x sa p rest I E Hreg) as (_ & Hmq).
    unfold unregister_full. rewrite (doev_some _ _ _ E).
    apply (srun_oldrel sa _ p (notify_all_script (length (pending sa)) sa)).
    - assert (p < nconns s) by (apply (registered_lt s (eid (conns s x)) p I); rewrite Hreg; right; now left).
      pose proof (step_nconns _ _ _ E). lia.
    - rewrite (Hmq Hroom). apply in_or_app. right. now left. }
  assert (Hins : forall c si, step true s (Insert c) = Some si -> entry_op s si i).
  { intros c si E.
    destruct (insert_entry s s c si i I I eq_refl eq_refl (fun _ _ => eq_refl) E) as [[_ H]|(_ & H1 & H2 & H3)];
      [now apply eo_same|eapply eo_ins; eauto]. }
  destruct M as [e He|id v|x|c x He|].
  - apply doev_rel; [now apply eo_same|]. intros si E.
    destruct He; eauto; apply eo_same; now destruct (step_frame _ _ _ E) as (_ & _ & _ & -> & _).
  - set (t := doev s (Spawn id v)).
    apply doev_rel; [now apply eo_same|]. intros si E.
    destruct (insert_entry s t (nconns s) si i I) as [[_ H]|(_ & H1 & H2 & H3)];
      [apply reach_Inv, doev_reach, R|reflexivity|reflexivity|intros a Ha; apply fupd_other; lia|exact E|
       now apply eo_same|eapply eo_ins; eauto].
  - apply Hun.
  - apply doev_rel; [apply Hun|]. intros si E.
    assert (Ii : Inv si) by (eapply Inv_step; eassumption).
    assert (Hex : eid (conns s x) = eid (conns si x)) by (apply (step_simx s _ si x E); discriminate).
    destruct (insert_entry s s c si i I I eq_refl eq_refl (fun _ _ => eq_refl) E) as [[Hne H]|(Hi & H1 & H2 & H3)].
    + apply eo_same. destruct (unregister_full_reg si x i Ii) as [Hr|(_ & Hx & _)]; congruence.
    + (* the entry of c and x: c stays in front, unless x is c itself; the unregister and its
         notices leave in a's queue what a has been told *)
      assert (Htold : forall a rest, reg s i = a :: rest -> room s a ->
                In (status_frame (ver (conns s a)) 1) (mq (conns (unregister_full si x) a))).
      { intros a rest Ha Hroom. apply (srun_oldrel si _ a (unregister_full_script si x)); eauto.
        assert (a < nconns s) by (apply (registered_lt s i a I); rewrite Ha; now left).
        pose proof (step_nconns _ _ _ E). lia. }
      destruct (unregister_full_reg si x i Ii) as [Hr|(_ & _ & Hr)]; rewrite H1 in Hr;
        [eapply eo_ins; eauto|].
      cbn [filter] in Hr. destruct (c =? x) eqn:Ecx; cbn [negb] in Hr.
      * apply N.eqb_eq in Ecx. subst x. apply eo_same. now rewrite Hr, filter_id_notin.
      * eapply eo_ins; [exact Hr|intros b Hb; now apply filter_In in Hb|exact H2|exact Htold].
  - destruct (shut_all_reg s i) as [Hr|[Hr Ht]]; [now apply eo_same|now apply eo_shut].
Qed.

Lemma room_of_sett s a : Sett s -> is_running (cstate (conns s a)) = true -> 1 <= cap s -> room s a.
Proof.
  intros S Hr Hc. destruct (sett_q s S a Hr) as (_ & _ & Hm). split.
  - intros Hd. rewrite Hd in Hr. discriminate.
  - rewrite Hm. cbn. lia.
Qed.

(* the loop over the notices (X, p'), p' in L: a, active for p and for no other endpoint, gets the
   one for p, if it has room for it, and is otherwise left as it is *)
Lemma notify_all_one X p a : forall L t,
  NoDup L -> pending t = map (pair X) L ->
  (forall p' r, reg t p' = a :: r -> p' = p) ->
  (In p L -> (exists r, reg t p = a :: r) -> room t a ->
   conns (notify_all (length L) t) a = with_mq (conns t a) (mq (conns t a) ++ [FGone X])) /\
  (~ In p L -> conns (notify_all (length L) t) a = conns t a).
Proof.
  induction L as [|p' L IH]; intros t Hnd Hp Hone; cbn [length notify_all]; [split; [contradiction|reflexivity]|].
  inversion Hnd as [|? ? Hn Hnd']. subst. rewrite Hp. cbn [map].
  set (t0 := set_pending t (map (pair X) L)).
  set (t1 := doev t (Notify 0)).
  assert (Ht1 : t1 = match reg t p' with [] => t0 | b :: _ => enqueue_m t0 b (FGone X) end).
  { apply doev_some, notify_head, Hp. }
  assert (F1 : tables_eq t0 t1) by (rewrite Ht1; destruct (reg t p'); [apply tables_eq_refl|apply enqueue_m_frame]).
  destruct F1 as (hc & _ & _ & hr & hp & _).
  specialize (IH t1 Hnd' hp). rewrite hr in IH. destruct (IH Hone) as [Hin Hnin].
  assert (Hoth : p' <> p -> conns t1 a = conns t a).
  { intros Hne. rewrite Ht1. destruct (reg t p') as [|b l] eqn:Eb; [reflexivity|].
    apply (enqueue_m_other t0). intros <-. apply Hne, (Hone p' l Eb). }
  split.
  - intros [->|HpL] HR Hroom.
    + rewrite Hnin by assumption. destruct HR as (r & HR). rewrite Ht1, HR. now apply (enqueue_m_room t0).
    + assert (Hne : p' <> p) by (intros ->; contradiction).
      rewrite Hin, (Hoth Hne); auto. unfold room. rewrite (Hoth Hne), hc. exact Hroom.
  - intros Hn'. rewrite Hnin, Hoth; [reflexivity|intros ->; apply Hn'; now left|intros Hx; apply Hn'; now right].
Qed.

(* the unregister of X's last connection x, between two operations: the active connection a of an
   endpoint p that X had sent to, if it still runs afterwards, has exactly the notice for X queued *)
Lemma unregister_last_news s0 x sa X p a rest :
  reach s0 -> Sett s0 -> step true s0 (Unregister x) = Some sa ->
  eid (conns s0 x) = X -> reg s0 X = [x] -> In p (sent s0 X) ->
  reg (unregister_full s0 x) p = a :: rest ->
  is_running (cstate (conns (unregister_full s0 x) a)) = true -> 1 <= cap s0 ->
  queues (conns (unregister_full s0 x) a) = [FGone X].
Proof.
  intros R S E HX Hreg Hp Hra Hrun Hcap.
  assert (Isa : Inv sa) by (eapply Inv_step; [apply reach_Inv|]; eassumption).
  unfold unregister_full in *. rewrite (doev_some _ _ _ E) in *.
  destruct (step_frame s0 _ sa E) as (hc & _ & _ & _ & Hpend & _).
  rewrite (proj2 (last_of_iff s0 x)), HX, (sett_p s0 S) in Hpend by now rewrite HX. cbn [app] in Hpend.
  rewrite Hpend, map_length in *.
  rewrite (srun_notify_reg sa _ (notify_all_srun (length (sent s0 X)) sa)) in Hra.
  assert (Ha : In a (reg sa p)) by (rewrite Hra; now left).
  apply (srun_oldrel sa _ a (notify_all_script _ sa) (registered_lt sa p a Isa Ha)) in Hrun.
  (* a runs after the unregister, so it is not x, and the unregister has left it alone *)
  assert (Hconn : conns sa a = conns s0 a).
  { cbn [step] in E. destruct (_ && _); [|discriminate]. rewrite HX, Hreg, N.eqb_refl in E. injection E as <-.
    cbn [conns set_conn set_pending set_sent set_reg] in *. unfold fupd in *.
    destruct (a =? x); [discriminate Hrun|reflexivity]. }
  rewrite Hconn in Hrun. destruct (sett_q s0 S a Hrun) as (_ & q1 & q2).
  destruct (notify_all_one X p a (sent s0 X) sa (reach_sent_NoDup s0 R X) Hpend) as [Hin _].
  - intros p' r Hr'. assert (Ha' : In a (reg sa p')) by (rewrite Hr'; now left).
    destruct (registered_eid sa p' a Isa Ha'), (registered_eid sa p a Isa Ha). congruence.
  - rewrite Hin; eauto.
    + unfold queues. cbn. now rewrite Hconn, q1, q2.
    + unfold room. rewrite Hconn, hc. now apply room_of_sett.
Qed.

Lemma gone_delivered_model ss0 ss1 r :
  SInv ss0 -> op_result ss0 ss1 -> Inv (st ss1) ->
  gone_delivered (st ss0) (st ss1) (observe ss0 ss1 r) = true.
Proof.
  intros [R S EX D] Hop I. apply gone_delivered_spec. intros X p a rest HX Hne Hnt Hnil Hp Ha Hrun Hcap.
  rewrite obs_stack_model_ids in Hnil by assumption. apply obs_stack_model_cons in Ha; [|assumption].
  destruct Hop as [Hsame|(s' & M & Hs')]; [rewrite Hsame in Hnil; contradiction|].
  rewrite Hs' in Hnil, Ha, Hnt. rewrite settle_reg in Hnil, Ha.
  pose proof (reach_Inv _ R) as I0.
  (* an entry disappears only with the unregister of its last connection, or in a shutdown *)
  destruct (mid_entry _ s' X R M) as [Hr|c0 r0 Hr _ _ _|x sa -> E HeX Hr _|_ _ Ht]; try rewrite Hr in Hnil.
  - contradiction.
  - discriminate.
  - apply filter_ne_nil in Hnil as [Hnil|Hrx]; [contradiction| |now apply Inv_reg_NoDup].
    assert (Hlt : a < nconns (st ss0)).
    { apply (registered_lt _ p a I0), (unregister_full_incl _ x p a I0). rewrite Ha. now left. }
    destruct (model_news ss0 ss1 r _ a R M Hs' Hlt Hrun) as [-> Hr'].
    rewrite (unregister_last_news _ x sa X p a rest R S E HeX Hrx Hp Ha Hr' Hcap).
    unfold count_frame. cbn. now rewrite N.eqb_refl.
  - exfalso. destruct (reg (st ss0) X) as [|c0 l0]; [contradiction|].
    specialize (Hnt c0 (or_introl eq_refl)). rewrite settle_taken, Ht in Hnt; [discriminate|now left].
Qed.

Lemma took_over_mid s0 s' id a rest0 c :
  reach s0 -> Sett s0 -> mid s0 s' ->
  reg s0 id = a :: rest0 -> In c (reg s' id) -> ~ In c (reg s0 id) ->
  is_running (cstate (conns s' a)) = true -> 1 <= cap s0 ->
  In (status_frame (ver (conns s0 a)) 1) (mq (conns s' a)).
Proof.
  intros R S M Hreg Hc Hnc Hrun Hcap. pose proof (reach_Inv s0 R) as I.
  assert (Ha : a < nconns s0) by (eapply registered_lt; [eassumption|rewrite Hreg; now left]).
  destruct (srun_oldrel s0 s' a (mid_srun _ _ M) Ha) as (_ & Hr0 & _).
  destruct (mid_entry s0 s' id R M) as [Hr|c0 r Hr Hin Hf Htold|x sa _ _ _ Hr _|_ Hr _]; rewrite Hr in Hc.
  - contradiction.
  - destruct Hc as [<-|Hc]; [|now apply Hin in Hc]. apply (Htold a rest0 Hreg), room_of_sett; auto.
  - apply filter_In in Hc as [Hc _]. contradiction.
  - contradiction.
Qed.

Lemma healthy_mid s0 s' id c p rest0 rest1 :
  reach s0 -> Sett s0 -> mid s0 s' ->
  reg s0 id = c :: p :: rest0 -> reg s' id = p :: rest1 -> ~ In c (reg s' id) ->
  is_running (cstate (conns s' p)) = true -> 1 <= cap s0 ->
  In (status_frame (ver (conns s0 p)) 0) (mq (conns s' p)).
Proof.
  intros R S M Hreg Hr1 Hnc Hrun Hcap. pose proof (reach_Inv s0 R) as I.
  assert (Hp : p < nconns s0) by (eapply registered_lt; [eassumption|rewrite Hreg; right; now left]).
  destruct (srun_oldrel s0 s' p (mid_srun _ _ M) Hp) as (_ & Hr0 & _).
  pose proof (room_of_sett s0 p S (Hr0 Hrun) Hcap) as Hroom.
  destruct (mid_entry s0 s' id R M) as [Hr|c0 r Hr Hin Hf Htold|x sa _ _ _ Hr Htold|_ Hr _]; rewrite Hr in Hr1, Hnc.
  - exfalso. apply Hnc. rewrite Hreg. now left.
  - injection Hr1 as -> _. exfalso. apply Hf. rewrite Hreg. right. now left.
  - (* whoever unregisters from an entry that holds c and then does not, is c *)
    destruct (N.eq_dec x c) as [->|Hne]; [now apply (Htold p rest0)|].
    exfalso. apply Hnc, filter_In. split; [rewrite Hreg; now left|]. apply negb_true_iff, N.eqb_neq. congruence.
  - discriminate.
Qed.

Lemma took_over_told_model ss0 ss1 r :
  SInv ss0 -> op_result ss0 ss1 -> Inv (st ss1) ->
  took_over_told (st ss0) (st ss1) (observe ss0 ss1 r) = true.
Proof.
  intros [R S EX D] Hop I. apply took_over_told_spec. intros id a rest0 c rest1 Hid Hreg Hst Hnc Hrun Hcap.
  apply obs_stack_model_cons in Hst; [|assumption].
  destruct Hop as [Hsame|(s' & M & Hs')]; [exfalso; apply Hnc; rewrite <- Hsame, Hst; now left|].
  assert (Ha : a < nconns (st ss0)) by (eapply registered_lt; [apply reach_Inv, R|rewrite Hreg; now left]).
  destruct (model_news ss0 ss1 r s' a R M Hs' Ha Hrun) as [-> Hr'].
  rewrite Hs', settle_reg in Hst.
  apply in_or_app. right. apply (took_over_mid _ _ id a rest0 c R S M); auto. rewrite Hst. now left.
Qed.

Lemma healthy_told_model ss0 ss1 r :
  SInv ss0 -> op_result ss0 ss1 -> Inv (st ss1) ->
  healthy_told (st ss0) (st ss1) (observe ss0 ss1 r) = true.
Proof.
  intros [R S EX D] Hop I. apply healthy_told_spec. intros id c p rest0 rest1 Hid Hreg Hst Hnc Hrun Hcap.
  apply obs_stack_model_cons in Hst; [|assumption]. rewrite (obs_stack_model_ids _ _ _ _ I Hid) in Hnc.
  destruct Hop as [Hsame|(s' & M & Hs')]; [exfalso; apply Hnc; rewrite Hsame, Hreg; now left|].
  assert (Hp : p < nconns (st ss0)) by (eapply registered_lt; [apply reach_Inv, R|rewrite Hreg; right; now left]).
  destruct (model_news ss0 ss1 r s' p R M Hs' Hp Hrun) as [-> Hr'].
  rewrite Hs', settle_reg in Hst, Hnc.
  apply in_or_app. right. now apply (healthy_mid _ _ id c p rest0 rest1 R S M).
Qed.

Lemma ends_explained_model ss0 ss1 r :
  Expl (st ss1) -> ends_explained (st ss1) (observe ss0 ss1 r) = true.
Proof.
  intros E. apply ends_explained_spec. intros c Hc Hr. destruct (E c Hc) as [Hrun|Hf]; [|now apply orb_true_iff].
  apply N.ltb_lt in Hc. rewrite obs_running_model, Hc, Hrun in Hr. discriminate.
Qed.

Lemma step_ok_model ss0 ss1 r :
  SInv ss0 -> op_result ss0 ss1 -> Inv (st ss1) -> Expl (st ss1) ->
  step_ok (st ss0) (st ss1) (observe ss0 ss1 r) = true.
Proof.
  intros HS Hop I E. unfold step_ok.
  rewrite registry_ok_model, gone_only_after_last_model, gone_delivered_model,
    took_over_told_model, healthy_told_model, ends_explained_model by assumption. reflexivity.
Qed.

Lemma monitor_steps_model l : forall ss, SInv ss ->
  monitor_steps ss (exec_ops ss l) (map snd (exec_ops ss l)) = true.
Proof.
  assert (Hstep : forall ss o, SInv ss ->
            step_ok (st ss) (st (fst (exec_op ss o))) (observe ss (fst (exec_op ss o)) (snd (exec_op ss o))) = true /\
            SInv (fst (exec_op ss o))).
  { intros ss o H. destruct (exec_op_mid ss o H) as [Hop H1]. split; [|exact H1].
    apply step_ok_model; [assumption..|apply reach_Inv, (si_reach _ H1)|apply (si_expl _ H1)]. }
  induction l as [|o l IH]; intros ss H; cbn [exec_ops].
  - destruct (win ss) as [w|]; [|reflexivity]. destruct (Hstep ss (OInsert w) H) as [Hok _].
    destruct (exec_op ss (OInsert w)) as [ss1 r]. cbn in *. now rewrite Hok.
  - destruct (Hstep ss o H) as [Hok H1]. destruct (exec_op ss o) as [ss1 r]. cbn [fst snd] in *.
    cbn [map snd monitor_steps fst]. rewrite Hok. apply IH, H1.
Qed.

Lemma SInv_init cap : SInv (mkSS (init cap) None None).
Proof.
  constructor; cbn [st win deferred].
  - apply reach_init.
  - constructor; [intros c H; discriminate H|reflexivity].
  - intros c Hc. cbn in Hc. lia.
  - discriminate.
Qed.

Lemma model_monitor i : monitor i (model i) = true.
Proof. unfold monitor, model, trace. apply monitor_steps_model, SInv_init. Qed.
