(* C16 — take_segments: one call cuts a piece of at most n segments off what the calls before
   have left (take_step); repeated until nothing is left it partitions the batch (unfold_spec).
   take_step, take_total and piece_left are also all that Proofs/C17.v uses of take_segments. *)
From V Require Import Lib.Base Lib.Lists Lib.MachineInt Model.C16.
From V Require Import Lib.LiaBool.
Import C16.
Open Scope N_scope.

Lemma len_firstn_skipn {A} k (l : list A) : firstn k l ++ skipn k l = l.
Proof. apply firstn_skipn. Qed.

Definition piece_spec (d : dg) (n : N) (p : dg) : Prop :=
  ecn p = ecn d /\
  match seg d with
  | None => seg p = None
  | Some ss =>
      len (contents p) <= n * ss /\
      ((seg p = Some ss /\ ss < len (contents p)) \/
       (seg p = None /\ len (contents p) <= ss))
  end.

Definition partition_spec (d : dg) (n : N) (o : output) : Prop :=
  exists steps, o = Ok steps /\
    concat (map (fun s => contents (fst s)) steps) = contents d /\
    Forall (fun s => piece_spec d n (fst s)) steps.

Lemma piece_ok_spec d n p : piece_ok d n p = true <-> piece_spec d n p.
Proof.
  unfold piece_ok, piece_spec. apply andb_iff; [apply N.eqb_eq|].
  destruct (seg d) as [ss|]; [|now destruct (seg p)].
  apply andb_iff; [apply N.leb_le|]. destruct (seg p) as [s|].
  - eapply iff_trans; [apply andb_iff; [apply N.eqb_eq|apply N.ltb_lt]|].
    split; [intros [-> H]; auto|intros [[[= ->] H]|[[=] _]]; auto].
  - eapply iff_trans; [apply N.leb_le|]. split; [auto|intros [[[=] _]|[_ H]]; exact H].
Qed.

Lemma monitor_spec d n o :
  wf d = true -> 1 <= n ->
  (monitor (d, n) o = true <-> partition_spec d n o).
Proof.
  intros Hwf Hn. unfold monitor, partition_spec.
  rewrite Hwf. cbn [negb orb]. destruct (n <? 1) eqn:E; [lia|].
  apply ok_iff; intros steps. apply andb_iff; [apply bytes_eqb_iff|].
  apply forallb_Forall_iff; intros s. apply piece_ok_spec.
Qed.

Lemma take_none d n :
  seg d = None ->
  take_segments d n = Ok (mkDg (ecn d) None (contents d), mkDg (ecn d) None []).
Proof. intros Hs. unfold take_segments. now rewrite Hs. Qed.

Lemma take_total d n : exists p r, take_segments d n = Ok (p, r).
Proof. unfold take_segments. destruct (seg d); eauto. Qed.

(* piece_spec in terms of the original batch's ecn and segment size: when seg d = Some ss,
   piece_spec d n is piece_of (ecn d) n ss by conversion, which is how take_partition meets
   unfold_spec *)
Definition piece_of (e n ss : N) (p : dg) : Prop :=
  ecn p = e /\ len (contents p) <= n * ss /\
  ((seg p = Some ss /\ ss < len (contents p)) \/ (seg p = None /\ len (contents p) <= ss)).

(* d is the batch or what a step left in self: it carries ss, or is a single datagram of at
   most ss bytes without segment size. *)
Definition left_of (e ss : N) (d : dg) : Prop :=
  ecn d = e /\ (seg d = Some ss \/ (seg d = None /\ len (contents d) <= ss)).

Lemma piece_left e n ss p : piece_of e n ss p -> left_of e ss p.
Proof. intros (He & _ & [[Hs _]|H]); split; auto. Qed.

(* one call cuts a piece off; what it leaves is again of that kind; unless that is empty, it is
   shorter and the piece holds n segments' worth of bytes (usize::MAX bytes if n * ss saturates) *)
Lemma take_step e n ss d :
  1 <= n -> 1 <= ss -> left_of e ss d ->
  exists p r, take_segments d n = Ok (p, r) /\
    contents p ++ contents r = contents d /\ piece_of e n ss p /\ left_of e ss r /\
    (contents r = [] \/
     (length (contents r) < length (contents d))%nat /\ len (contents p) = N.min (n * ss) U64_MAX).
Proof.
  intros Hn Hss [He [Hs|[Hs Hle]]].
  - unfold take_segments. rewrite Hs. cbv zeta. eexists _, _. split; [reflexivity|].
    unfold piece_of, left_of, u64_sat_mul. cbn [contents ecn seg].
    set (c := contents d). set (k := N.to_nat _). set (piece := firstn k c). set (rest := skipn k c).
    assert (Hk : len piece = N.min (N.min (n * ss) U64_MAX) (len c))
      by (unfold piece, k, len; rewrite firstn_length; lia).
    assert (Hl : (length c = length piece + length rest)%nat)
      by (rewrite <- app_length; unfold piece, rest; now rewrite firstn_skipn).
    (* U64_MAX stays folded: all that is needed of it is 1 <= U64_MAX, and lia over the numeral is dear *)
    assert (1 <= U64_MAX) by (unfold U64_MAX; lia). assert (1 <= n * ss) by nia.
    split; [apply firstn_skipn|]. split; [|split].
    + split; [exact He|]. split; [lia|].
      destruct ((1 <? n) && (ss <? len piece)) eqn:E; [left; split; [reflexivity|lia]|right].
      split; [reflexivity|]. destruct (N.ltb_spec 1 n); [cbn [andb] in E; lia|nia].
    + split; [exact He|]. destruct (N.leb_spec (len rest) ss); auto.
    + (* the piece is not empty (n * ss >= 1) when d still has bytes *)
      destruct rest; [auto|right]. unfold len in Hk |- *. cbn [length] in Hl |- *. lia.
  - rewrite (take_none d n Hs). eexists _, _. split; [reflexivity|].
    unfold piece_of, left_of. cbn [contents ecn seg]. assert (ss <= n * ss) by nia.
    split; [apply app_nil_r|]. repeat split; auto; [lia|right; split; [reflexivity|apply N.le_0_l]].
Qed.

Lemma unfold_spec e n ss :
  1 <= n -> 1 <= ss ->
  forall fuel d, left_of e ss d ->
  (length (contents d) < fuel)%nat ->
  exists steps, unfold_take fuel d n = Ok steps /\
    concat (map (fun s => contents (fst s)) steps) = contents d /\
    Forall (fun s => piece_of e n ss (fst s)) steps.
Proof.
  intros Hn Hss. induction fuel as [|f IH]; intros d Hd Hfuel; [lia|].
  cbn [unfold_take].
  destruct (take_step e n ss d Hn Hss Hd) as (p & r & -> & Hcat & Hp & Hr & Hlt).
  destruct (contents r) as [|b rest] eqn:Hc.
  - exists [(p, digest r)]. split; [reflexivity|].
    cbn [map concat fst]. rewrite app_nil_r in *. auto.
  - destruct (IH r Hr) as (steps & -> & Hcat' & Hall); [rewrite Hc; destruct Hlt as [|[]]; [discriminate|lia]|].
    exists ((p, digest r) :: steps). split; [reflexivity|].
    cbn [map concat fst]. rewrite Hcat', Hc. auto.
Qed.

Lemma take_partition d n :
  wf d = true -> 1 <= n ->
  partition_spec d n (model (d, n)).
Proof.
  intros Hwf Hn. unfold partition_spec, model, piece_spec. destruct (seg d) as [ss|] eqn:Hs.
  - unfold wf in Hwf. rewrite Hs in Hwf.
    apply (unfold_spec (ecn d) n ss); [assumption|lia|split; auto|lia].
  - cbn [unfold_take]. rewrite (take_none d n Hs). cbn [contents].
    eexists; split; [reflexivity|]. cbn [map concat fst contents]. rewrite app_nil_r. auto.
Qed.

(* The model's output satisfies the monitor (the property) for every
   well-formed batch and every n >= 1 whose product with the segment size
   fits a usize. *)
Lemma model_monitor d n :
  monitor (d, n) (model (d, n)) = true.
Proof.
  destruct (negb (wf d) || (n <? 1)) eqn:Hg; [unfold monitor; now rewrite Hg|].
  apply orb_false_elim in Hg as [Hwf Hn]. apply negb_false_iff in Hwf.
  apply monitor_spec; [assumption|lia|]. apply take_partition; [assumption|lia].
Qed.

(* n * ss > usize::MAX panicked in unfixed iroh; saturating_mul takes the whole batch *)
Example take_saturates :
  model (mkDg 0 (Some 2) [1;2;3], U64_MAX) = Ok [ (mkDg 0 (Some 2) [1;2;3], (None, 0)) ].
Proof. vm_compute. reflexivity. Qed.

Example take_example :
  model (mkDg 1 (Some 2) [1;2;3;4;5;6;7], 2) =
  Ok [ (mkDg 1 (Some 2) [1;2;3;4], (Some 2, 3));
       (mkDg 1 (Some 2) [5;6;7], (None, 0)) ].
Proof. vm_compute. reflexivity. Qed.
