(* C39: the signed-packet store (signed_packets.rs).  Every history of messages whose CheckExpired
   are ones the evict task can send (wf_msg) keeps each stored packet under an index row; the
   durable state is the effect of the committed batches; an upserted packet stays, or a newer one
   does, until a CheckExpired finds it expired. *)
From V Require Import Lib.Base Lib.Lists Model.C38 Model.C39 Proofs.C38.
(* C39 comes last, so [obs], [event], [input], [output], [model], [monitor], [agree], [known], [tag],
   [judge] and [obs_eqb], which both modules have, are C39's; of C38 the packets and their order are used *)
Import C38 C39.
Open Scope N_scope.

Lemma row_eqb_iff a b : row_eqb a b = true <-> a = b.
Proof.
  eapply iff_trans; [apply andb_iff; apply N.eqb_eq|].
  split; [destruct a, b; cbn [fst snd]; intros [-> ->]; reflexivity|intros ->; auto].
Qed.

Lemma ix_mem_In r l : ix_mem r l = true <-> In r l.
Proof. apply (mem_iff _ row_eqb_iff). Qed.

Lemma In_ix_insert r r' l : In r (ix_insert r' l) <-> r = r' \/ In r l.
Proof.
  unfold ix_insert. destruct (ix_mem r' l) eqn:E.
  - apply ix_mem_In in E. split; [auto|intros [->|]; auto].
  - cbn. split; intros [|]; auto.
Qed.

Lemma In_ix_remove r r' l : In r (ix_remove r' l) <-> In r l /\ r <> r'.
Proof.
  eapply iff_trans; [apply filter_In|]. apply and_iff_compat_l. apply negb_iff, row_eqb_iff.
Qed.

(* the test of [evicts_key]: [evicts_key k ms] is [existsb (on_key k) ms] by conversion *)
Definition on_key (k : N) (m : msg) : bool :=
  match m with CheckExpired _ _ k' => k' =? k | _ => false end.

Lemma handle_pk R d m k :
  pk (fst (handle R d m)) k =
  match m with
  | Upsert now p =>
      if k =? pkey p
      then match pk d k with
           | Some (ls, e) => if more_recent e p then Some (ls, e) else Some (now, p)
           | None => Some (now, p)
           end
      else pk d k
  | Get _ => pk d k
  | CheckExpired now _ k0 =>
      match pk d k with
      | Some (ls, q) => if on_key k m && (pts q <? now - R) then None else Some (ls, q)
      | None => None
      end
  end.
Proof.
  destruct m as [now p|k0|now time k0]; cbn [handle on_key]; [|reflexivity|].
  - destruct (pk d (pkey p)) as [[ls e]|] eqn:E; [destruct (more_recent e p) eqn:M|];
      cbn [fst pk]; unfold upd; destruct (N.eqb_spec k (pkey p)) as [->|]; now rewrite ?E, ?M.
  - rewrite (N.eqb_sym k0 k).
    destruct (pk d k0) as [[ls q]|] eqn:E; [destruct (pts q <? now - R) eqn:Old|];
      cbn [fst pk]; unfold upd; destruct (N.eqb_spec k k0) as [->|]; rewrite ?E, ?Old; cbn [andb];
      try reflexivity; now destruct (pk d k) as [[]|].
Qed.

Lemma handle_keeps R d m k ls q :
  pk d k = Some (ls, q) -> on_key k m = false ->
  exists ls' q', pk (fst (handle R d m)) k = Some (ls', q') /\ ge q' q = true.
Proof.
  intros H K. rewrite handle_pk. destruct m as [now p|k0|now time k0]; rewrite ?K, H.
  - destruct (k =? pkey p); [destruct (more_recent q p) eqn:M|];
      do 2 eexists; (split; [reflexivity|]); try apply ge_refl.
    unfold ge. now rewrite M.
  - do 2 eexists. split; [reflexivity|apply ge_refl].
  - do 2 eexists. split; [reflexivity|apply ge_refl].
Qed.

Lemma evict_only_old R d now time k :
  let d' := fst (handle R d (CheckExpired now time k)) in
  (forall k', k' <> k -> pk d' k' = pk d k') /\
  (pk d' k = pk d k \/
   (pk d' k = None /\ exists ls q, pk d k = Some (ls, q) /\ pts q < now - R)).
Proof.
  cbn zeta. split.
  - intros k' Ne. rewrite handle_pk. cbn [on_key].
    rewrite (proj2 (N.eqb_neq k k') (not_eq_sym Ne)). now destruct (pk d k') as [[]|].
  - rewrite handle_pk. cbn [on_key]. rewrite N.eqb_refl.
    destruct (pk d k) as [[ls q]|]; [|now left]. cbn [andb].
    destruct (N.ltb_spec (pts q) (now - R)); [right; eauto|now left].
Qed.

(* the expiry index has a row for every stored packet; it may have more (dangling_row below) *)
Definition covers (d : db) : Prop :=
  forall k ls p, pk d k = Some (ls, p) -> pkey p = k /\ In (pts p, k) (ix d).

(* what the evict task sends: rows older than its cut-off, which is not later than the one
   the actor computes when it handles the message (the clock is monotone) *)
Definition wf_msg (R : N) (m : msg) : Prop :=
  match m with CheckExpired now time k => time < now - R | _ => True end.

Lemma covers_put d ls p rows :
  covers d -> (forall r, In r (ix d) -> snd r <> pkey p -> In r rows) ->
  covers (mkDb (upd (pk d) (pkey p) (Some (ls, p))) (ix_insert (pts p, pkey p) rows)).
Proof.
  intros C Hrows k ls' q. cbn [pk ix]. unfold upd. destruct (N.eqb_spec k (pkey p)) as [->|Ne].
  - intros [= <- <-]. split; auto. apply In_ix_insert. now left.
  - intros H. destruct (C _ _ _ H) as [A B]. split; auto. apply In_ix_insert. right. now apply Hrows.
Qed.

Lemma handle_covers R d m : covers d -> wf_msg R m -> covers (fst (handle R d m)).
Proof.
  intros C W. destruct m as [now p|k|now time k].
  - cbn [handle]. destruct (pk d (pkey p)) as [[ls e]|]; [destruct (more_recent e p); [exact C|]|];
      apply covers_put; auto.
    intros r Hr Ne. apply In_ix_remove. split; auto. intros ->. now apply Ne.
  - exact C.
  - (* the row (time, k) goes; a packet of k that stays is not older than now - R > time *)
    assert (Hix : ix (fst (handle R d (CheckExpired now time k))) = ix_remove (time, k) (ix d)).
    { cbn [handle]. now destruct (pk d k) as [[ls q]|]; [destruct (pts q <? now - R)|]. }
    intros k' ls' q'. rewrite handle_pk, Hix.
    destruct (pk d k') as [[ls0 q0]|] eqn:E; [|discriminate].
    destruct (on_key k' _ && _) eqn:Hk; [discriminate|]. intros [= <- <-].
    destruct (C _ _ _ E) as [A B]. split; [exact A|]. apply In_ix_remove. split; [exact B|].
    intros [= T K]. subst. cbn [on_key] in Hk. rewrite N.eqb_refl in Hk. apply N.ltb_ge in Hk.
    cbn in W. lia.
Qed.

Lemma apply_covers R : forall ms d, covers d -> Forall (wf_msg R) ms -> covers (apply R d ms).
Proof.
  induction ms as [|m r IH]; intros d C W; [exact C|]. cbn [apply]. inversion W; subst.
  apply IH; auto. apply handle_covers; auto.
Qed.

(* at every point of every history (so in particular at every commit) *)
Lemma index_covers_store R d0 ms :
  covers d0 -> Forall (wf_msg R) ms -> forall n, covers (apply R d0 (firstn n ms)).
Proof. intros C W n. apply apply_covers; auto. now apply Forall_firstn. Qed.

(* the converse fails: a CheckExpired for an old row that arrives after the key was
   republished with another old timestamp removes the packet and leaves the new row *)
Definition dp1 := mkPkt 0 1 0 1 [1].
Definition dp2 := mkPkt 0 2 0 2 [2].
Definition dangling_history : list msg :=
  [Upsert 5 dp1; Upsert 6 dp2; CheckExpired 110 1 0].
Lemma dangling_row :
  Forall (wf_msg 100) dangling_history /\
  let d := apply 100 empty dangling_history in pk d 0 = None /\ ix d = [(2, 0)].
Proof. split; [repeat constructor; cbn; lia|]. vm_compute. auto. Qed.
(* ... and the next scan removes it *)
Lemma dangling_heals :
  ix (apply 100 empty (dangling_history ++ [CheckExpired 110 2 0])) = [].
Proof. vm_compute. reflexivity. Qed.

Lemma apply_app R : forall a d b, apply R d (a ++ b) = apply R (apply R d a) b.
Proof. induction a as [|m a IH]; intros d b; cbn; auto. Qed.

Lemma ev_run_aux R d0 : forall es done pending,
  ev_run R (apply R d0 done, apply R d0 (done ++ pending)) es =
  (apply R d0 (fst (survived_aux es done pending)),
   apply R d0 (fst (survived_aux es done pending) ++ snd (survived_aux es done pending))).
Proof.
  unfold ev_run. induction es as [|e es IH]; intros done pending; [reflexivity|].
  destruct e as [m| |]; cbn [fold_left survived_aux ev_step fst snd]; rewrite <- IH.
  - now rewrite app_assoc, (apply_app R (done ++ pending) d0 [m]).
  - now rewrite app_nil_r.
  - now rewrite app_nil_r.
Qed.

(* durable state: the effect of the committed batches; open transaction: plus the pending messages *)
Lemma durable_is_survived R d0 es :
  ev_run R (d0, d0) es =
  (apply R d0 (fst (survived es)), apply R d0 (fst (survived es) ++ snd (survived es))).
Proof. exact (ev_run_aux R d0 es [] []). Qed.

Fixpoint no_crash (es : list event) : Prop :=
  match es with [] => True | ECrash :: _ => False | _ :: r => no_crash r end.

Lemma survived_prefix_aux : forall es done pending,
  no_crash es ->
  (done ++ pending ++ msgs_of es)%list =
  (fst (survived_aux es done pending) ++ snd (survived_aux es done pending))%list.
Proof.
  induction es as [|e es IH]; intros done pending H; cbn [survived_aux msgs_of fst snd].
  - now rewrite app_nil_r.
  - destruct e; cbn in H; try contradiction.
    + rewrite <- IH by auto. rewrite <- !app_assoc. reflexivity.
    + rewrite <- IH by auto. rewrite <- !app_assoc. reflexivity.
Qed.

Lemma recovered_is_prefix R d0 es :
  no_crash es ->
  let pre := fst (survived es) in
  ev_run R (d0, d0) (es ++ [ECrash]) = (apply R d0 pre, apply R d0 pre) /\
  exists rest, msgs_of es = (pre ++ rest)%list.
Proof.
  intros H pre. split.
  - unfold ev_run. rewrite fold_left_app. fold (ev_run R (d0, d0) es).
    rewrite durable_is_survived. reflexivity.
  - exists (snd (survived es)). exact (survived_prefix_aux es [] [] H).
Qed.

(* the key of p holds a packet not older than p: [stored_ge] of Proofs/C38 on a table that also
   keeps last_seen; [holds_ge] is the monitor's test of it on a dump (holds_ge_of) *)
Definition holds (d : db) (p : pkt) : Prop :=
  exists ls q, pk d (pkey p) = Some (ls, q) /\ ge q p = true.

Lemma upsert_holds R d now p : holds (fst (handle R d (Upsert now p))) p.
Proof.
  unfold holds. rewrite handle_pk, N.eqb_refl.
  destruct (pk d (pkey p)) as [[ls e]|]; [destruct (more_recent e p) eqn:M|];
    do 2 eexists; (split; [reflexivity|]); try apply ge_refl.
  now apply more_recent_ge.
Qed.

(* the last clause of the monitor for IOps, which spells this [existsb] out: the two are tied
   by conversion *)
Definition expired_by (R : N) (p : pkt) (ms : list msg) : bool :=
  existsb (fun m => match m with
                    | CheckExpired now _ k => (k =? pkey p) && (pts p <? now - R)
                    | _ => false end) ms.

Lemma expired_app R p a b : expired_by R p a = true -> expired_by R p (a ++ b) = true.
Proof. unfold expired_by. rewrite existsb_app. intros ->. reflexivity. Qed.

Lemma expired_cons R p m r : expired_by R p r = true -> expired_by R p (m :: r) = true.
Proof. unfold expired_by. cbn [existsb]. intros ->. apply orb_true_r. Qed.

Lemma expired_evicts R p ms : expired_by R p ms = true -> evicts_key (pkey p) ms = true.
Proof.
  unfold expired_by, evicts_key. rewrite !existsb_exists. intros (m & Hm & E). exists m. split; auto.
  destruct m; try discriminate. now apply andb_prop in E as [E _].
Qed.

Lemma handle_holds_or_expired R d m p :
  holds d p -> holds (fst (handle R d m)) p \/ expired_by R p [m] = true.
Proof.
  intros (ls & q & Hq & G). destruct (on_key (pkey p) m) eqn:K.
  - destruct m as [| |now time k]; try discriminate.
    unfold holds, expired_by. rewrite handle_pk, Hq, K. cbn [on_key existsb andb] in *. rewrite K.
    destruct (N.ltb_spec (pts q) (now - R)); [right|left; eauto].
    apply ge_ts in G. rewrite orb_false_r. apply N.ltb_lt. lia.
  - left. destruct (handle_keeps R d m _ ls q Hq K) as (ls' & q' & Hq' & G').
    exists ls', q'. split; [exact Hq'|]. eapply ge_trans; eassumption.
Qed.

(* every packet stored at the start or upserted on the way stays stored, or a newer one does,
   until a CheckExpired for its key finds the stored packet older than the retention period *)
Lemma kept_or_expired R p : forall ms d,
  holds d p \/ In p (upserts ms) -> holds (apply R d ms) p \/ expired_by R p ms = true.
Proof.
  induction ms as [|m r IH]; intros d H; cbn [apply]; [destruct H as [H|[]]; now left|].
  assert (H' : (holds (fst (handle R d m)) p \/ In p (upserts r)) \/ expired_by R p [m] = true).
  { destruct H as [H|H].
    - destruct (handle_holds_or_expired R d m p H); auto.
    - destruct m as [now p'| |]; auto. destruct H as [<-|H]; auto. left. left. apply upsert_holds. }
  destruct H' as [H'|X].
  - destruct (IH _ H') as [A|B]; [now left|right; now apply expired_cons].
  - right. exact (expired_app R p [m] r X).
Qed.

(* ... so while no CheckExpired for its key is handled (evict_only_old is about those) *)
Lemma committed_or_newer R d0 h1 now p h2 :
  existsb (on_key (pkey p)) h2 = false ->
  holds (apply R d0 (h1 ++ Upsert now p :: h2)) p.
Proof.
  intros E. rewrite apply_app.
  destruct (kept_or_expired R p (Upsert now p :: h2) (apply R d0 h1)) as [H|X]; [right; now left|exact H|].
  apply expired_evicts in X. change (existsb (on_key (pkey p)) h2 = true) in X. congruence.
Qed.

Lemma be_bytes_length n : forall x, length (be_bytes n x) = n.
Proof. induction n; intros x; cbn; auto. rewrite app_length, IHn. cbn. lia. Qed.

Lemma len_serialize now b : len (serialize now b) = len b + 8.
Proof. unfold serialize. rewrite len_app. unfold len at 1. rewrite be_bytes_length. lia. Qed.

Lemma skipn_serialize now b : skipn 8 (serialize now b) = b.
Proof. apply skipn_app_length, be_bytes_length. Qed.

Section FormatProofs.
  Variable key_ok dns_ok : bytes -> bool.

  Lemma from_bytes_unchecked_ok b p :
    from_bytes_unchecked key_ok dns_ok b = Ok p <->
    p = b /\
    key_ok (firstn 32 b) && dns_ok (skipn 104 b) && (104 <=? len b) && (len b <=? 1104) = true.
  Proof.
    unfold from_bytes_unchecked. rewrite !N.leb_antisym.
    destruct (key_ok (firstn 32 b)), (dns_ok (skipn 104 b)), (len b <? 104), (1104 <? len b);
      cbn; split; try discriminate; try (intros [_ H]; discriminate H).
    - intros [= <-]. auto.
    - now intros [-> _].
  Qed.

  Lemma from_bytes_unchecked_id b p : from_bytes_unchecked key_ok dns_ok b = Ok p -> p = b.
  Proof. intros H. apply from_bytes_unchecked_ok in H. apply H. Qed.

  Lemma serialize_roundtrip now b :
    from_bytes_unchecked key_ok dns_ok b = Ok b ->
    deserialize key_ok dns_ok (serialize now b) = Ok b.
  Proof.
    intros H. unfold deserialize. rewrite skipn_serialize, H, len_serialize.
    now rewrite (proj2 (N.leb_le 8 (len b + 8))) by lia.
  Qed.

  (* a row in the pre-v0.35 format (the raw packet); its tail from byte 8 on must not
     itself parse as a packet *)
  Lemma legacy_roundtrip b :
    from_bytes_unchecked key_ok dns_ok b = Ok b ->
    (forall p, from_bytes_unchecked key_ok dns_ok (skipn 8 b) <> Ok p) ->
    deserialize key_ok dns_ok b = Ok b.
  Proof.
    intros H N. unfold deserialize.
    destruct (8 <=? len b); [|exact H].
    destruct (from_bytes_unchecked key_ok dns_ok (skipn 8 b)) eqn:E; try exact H.
    exfalso. eapply N. reflexivity.
  Qed.

  Lemma deserialize_shape data p :
    deserialize key_ok dns_ok data = Ok p -> p = skipn 8 data \/ p = data.
  Proof.
    unfold deserialize. intros H.
    destruct (8 <=? len data); [destruct (from_bytes_unchecked key_ok dns_ok (skipn 8 data)) eqn:E|].
    1:{ injection H as <-. left. exact (from_bytes_unchecked_id _ _ E). }
    all: right; exact (from_bytes_unchecked_id _ _ H).
  Qed.
End FormatProofs.

(* what the messages of one scan, which all carry the same [now], leave of key k *)
Lemma apply_checks R now : forall rows d k,
  pk (apply R d (map (fun r => CheckExpired now (fst r) (snd r)) rows)) k =
  match pk d k with
  | Some (ls, q) =>
      if (pts q <? now - R) && existsb (fun r => snd r =? k) rows then None else Some (ls, q)
  | None => None
  end.
Proof.
  induction rows as [|r rows IH]; intros d k; cbn [map apply existsb].
  - destruct (pk d k) as [[ls q]|]; auto. now rewrite andb_false_r.
  - rewrite IH, handle_pk. cbn [on_key]. destruct (pk d k) as [[ls q]|]; [|reflexivity].
    destruct (snd r =? k), (pts q <? now - R) eqn:Old; cbn [andb orb]; rewrite ?Old; reflexivity.
Qed.

(* one scan with cut-off c, handled when the actor's own cut-off now - R is at least c *)
Lemma evict_eventually R d c now :
  covers d -> c <= now - R ->
  let d' := apply R d (scan c now d) in
  (forall k ls q, pk d' k = Some (ls, q) -> pk d k = Some (ls, q) /\ c <= pts q) /\
  (forall k ls q, pk d k = Some (ls, q) -> now - R <= pts q -> pk d' k = Some (ls, q)).
Proof.
  intros C Hc d'. unfold d', scan. split.
  - intros k ls q. rewrite apply_checks.
    destruct (pk d k) as [[ls0 q0]|] eqn:E; [|discriminate].
    destruct (N.ltb_spec (pts q0) (now - R)); cbn [andb].
    + destruct (existsb _ _) eqn:X; [discriminate|].
      intros [= <- <-]. split; auto.
      destruct (N.lt_ge_cases (pts q0) c) as [Lt|]; auto. exfalso.
      (* the packet's own index row is older than c, so the scan sends a message for k *)
      destruct (C _ _ _ E) as [Kq In]. rewrite <- not_true_iff_false in X. apply X.
      apply existsb_exists. exists (pts q0, k). split; [|apply N.eqb_refl].
      apply filter_In. split; [exact In|]. now apply N.ltb_lt.
    + intros [= <- <-]. split; auto. lia.
  - intros k ls q E Hq. rewrite apply_checks, E.
    destruct (N.ltb_spec (pts q) (now - R)); [lia|reflexivity].
Qed.

(* every stored packet is one of [known], the list in which [dump_ok] and [holds_ge] look up the
   packet behind a dumped (timestamp, identity) *)
Definition prov (known : list pkt) (d : db) : Prop :=
  forall k ls p, pk d k = Some (ls, p) -> In p known.

Lemma handle_prov known R d m :
  prov known d -> (forall now p, m = Upsert now p -> In p known) -> prov known (fst (handle R d m)).
Proof.
  intros P U k ls q. rewrite handle_pk. destruct m as [now p|k0|now time k0]; [|apply P|].
  - destruct (k =? pkey p); [|apply P].
    destruct (pk d k) as [[ls' e]|] eqn:E; [destruct (more_recent e p)|];
      intros [= <- <-]; eauto.
  - destruct (pk d k) as [[ls' q']|] eqn:E; [|discriminate].
    destruct (_ && _); intros [= <- <-]. eauto.
Qed.

Lemma apply_prov known R : forall ms d,
  prov known d -> incl (upserts ms) known -> prov known (apply R d ms).
Proof.
  induction ms as [|m r IH]; intros d P I; [exact P|]. cbn [apply].
  unfold upserts in I. cbn [flat_map] in I. apply incl_app_inv in I as [I1 I2].
  apply IH; auto. apply handle_prov; auto. intros now p ->. apply I1. now left.
Qed.

Lemma prov_incl known known' d : prov known d -> incl known known' -> prov known' d.
Proof. intros P I k ls p H. eapply I, P, H. Qed.

Lemma apply_empty R l :
  Forall (wf_msg R) l ->
  let d := apply R empty l in
  covers d /\ prov (upserts l) d /\
  forall p, In p (upserts l) -> holds d p \/ expired_by R p l = true.
Proof.
  intros W d. split; [|split].
  - apply apply_covers; [intros k ls p H; discriminate|exact W].
  - apply apply_prov; [intros k ls p H; discriminate|apply incl_refl].
  - intros p Hp. apply kept_or_expired. now right.
Qed.

(* the rows present before the store is opened are upserts into the empty store, their keys
   being distinct.  [pre_step] is the function [preload] folds: [preload pre] is
   [fold_left pre_step pre empty] by conversion *)
Definition pre_step (d : db) (v : N * pkt) : db :=
  mkDb (upd (pk d) (pkey (snd v)) (Some v)) (ix_insert (pts (snd v), pkey (snd v)) (ix d)).
Definition pre_msgs (pre : list (N * pkt)) : list msg := map (fun v => Upsert (fst v) (snd v)) pre.

Lemma preload_apply R : forall pre d,
  NoDup (map (fun v => pkey (snd v)) pre) -> (forall v, In v pre -> pk d (pkey (snd v)) = None) ->
  fold_left pre_step pre d = apply R d (pre_msgs pre).
Proof.
  induction pre as [|[ls p] r IH]; intros d N F; [reflexivity|].
  pose proof (F (ls, p) (or_introl eq_refl)) as Fp. cbn [snd] in Fp.
  cbn [fold_left pre_msgs map apply fst snd handle]. rewrite Fp. cbn [fst].
  inversion N as [|? ? Nin Nr]; subst. apply IH; [exact Nr|].
  intros w Hw. cbn [pk]. unfold upd.
  destruct (N.eqb_spec (pkey (snd w)) (pkey p)) as [Eq|]; [|apply F; now right].
  exfalso. apply Nin. cbn [snd]. rewrite <- Eq. now apply (in_map (fun v => pkey (snd v))).
Qed.

Lemma upserts_app a b : upserts (a ++ b) = (upserts a ++ upserts b)%list.
Proof. unfold upserts. apply flat_map_app. Qed.

Lemma expired_pre R p pre pm : expired_by R p (pre_msgs pre ++ pm) = expired_by R p pm.
Proof. unfold expired_by, pre_msgs. rewrite existsb_app. induction pre as [|v r IH]; cbn; auto. Qed.

Lemma upserts_pre pre : upserts (pre_msgs pre) = map snd pre.
Proof. unfold upserts, pre_msgs. induction pre as [|v r IH]; cbn; [reflexivity|]. now rewrite IH. Qed.

Lemma chunks_aux_prefix : forall f b ms j, exists rest, ms = (concat (firstn j (chunks_aux f b ms)) ++ rest)%list.
Proof.
  induction f as [|f IH]; intros b ms j.
  - exists ms. cbn. now rewrite firstn_nil.
  - destruct ms as [|m ms']; [exists []; cbn; now rewrite firstn_nil|].
    cbn [chunks_aux]. destruct j as [|j]; [exists (m :: ms'); reflexivity|].
    cbn [firstn concat]. destruct (IH b (skipn b (m :: ms')) j) as (rest & E).
    exists rest. rewrite <- app_assoc, <- E. symmetry. apply firstn_skipn.
Qed.

Lemma chunks_prefix batch ms j : exists rest, ms = (concat (firstn j (chunks batch ms)) ++ rest)%list.
Proof. apply chunks_aux_prefix. Qed.

Lemma dump_ok_of known nkeys d : covers d -> prov known d -> dump_ok known (dump_of nkeys d) = true.
Proof.
  intros C P. unfold dump_ok, dump_of. cbn [fst snd]. apply forallb_forall. intros c Hc.
  apply in_map_iff in Hc as (k & <- & _). cbn [fst snd].
  destruct (pk d (N.of_nat k)) as [[ls p]|] eqn:E; cbn [option_map fst snd]; [|reflexivity].
  destruct (C _ _ _ E) as [Kp In]. apply andb_true_intro. split.
  - now apply ix_mem_In.
  - apply existsb_exists. exists p. split; [eapply P; eauto|]. now rewrite Kp, !N.eqb_refl.
Qed.

Lemma holds_ge_of known nkeys d p :
  covers d -> prov known d -> pkey p < N.of_nat nkeys -> holds d p ->
  holds_ge known (dump_of nkeys d) p = true.
Proof.
  intros C P K (ls & q & Hq & G). unfold holds_ge, dump_of. cbn [fst].
  apply existsb_exists. exists (pkey p, Some (ls, pts q, pval q)). split.
  - apply in_map_iff. exists (N.to_nat (pkey p)). rewrite N2Nat.id, Hq. split; auto.
    apply in_seq. lia.
  - cbn [fst snd]. rewrite N.eqb_refl. cbn [andb]. apply existsb_exists. exists q. split; [eapply P; eauto|].
    destruct (C _ _ _ Hq) as [Kq _]. now rewrite Kq, G, !N.eqb_refl.
Qed.

Lemma wf_ops_iff R nkeys pre ms :
  wf_ops R nkeys pre ms = true <->
  (Forall (wf_msg R) ms /\ NoDup (map (fun v => pkey (snd v)) pre)) /\
  forall p, In p (map snd pre ++ upserts ms) -> pkey p < N.of_nat nkeys.
Proof.
  apply andb_iff; [apply andb_iff|].
  - apply forallb_Forall_iff. intros [now p|k|now time k]; [apply true_iff..|apply N.ltb_lt].
  - apply nodupb_iff.
  - apply forallb_iff. intros p. apply N.ltb_lt.
Qed.

Section OpsMonitor.
  Variables (R : N) (nkeys : nat) (pre : list (N * pkt)) (ms : list msg).
  Hypothesis W : wf_ops R nkeys pre ms = true.
  (* the monitor's own [let known := ..]; to the end of the section it hides [known : input -> N] *)
  Let known := (map snd pre ++ upserts ms)%list.
  Let d0 := preload pre.

  Lemma prefix_facts pm rest :
    ms = (pm ++ rest)%list ->
    let dmp := dump_of nkeys (apply R d0 pm) in
    dump_ok known dmp = true /\
    forall p, In p (map snd pre ++ upserts pm) ->
      holds_ge known dmp p = true \/ expired_by R p pm = true.
  Proof.
    intros E. destruct (proj1 (wf_ops_iff _ _ _ _) W) as [[W1 W2] W3].
    assert (Ed : apply R d0 pm = apply R empty (pre_msgs pre ++ pm)).
    { unfold d0. rewrite apply_app. f_equal. now apply preload_apply. }
    destruct (apply_empty R (pre_msgs pre ++ pm)) as (C & P & H).
    { apply Forall_app. split; [|rewrite E in W1; now apply Forall_app in W1].
      apply Forall_forall. intros m Hm. apply in_map_iff in Hm as (v & <- & _). exact I. }
    rewrite <- Ed, upserts_app, upserts_pre in *.
    assert (I : incl (map snd pre ++ upserts pm) known).
    { unfold known. rewrite E, upserts_app, app_assoc. apply incl_appl, incl_refl. }
    apply (prov_incl _ _ _ P) in I as P'. split; [now apply dump_ok_of|].
    intros p Hp. rewrite <- (expired_pre R p pre pm).
    destruct (H p Hp) as [Hh|He]; [left|now right]. apply holds_ge_of; auto.
  Qed.

  Lemma prefix_checks pm rest p :
    ms = (pm ++ rest)%list -> In p (map snd pre ++ upserts pm) ->
    evicts_key (pkey p) ms || holds_ge known (dump_of nkeys (apply R d0 pm)) p = true.
  Proof.
    intros E Hp. destruct (proj2 (prefix_facts pm rest E) p Hp) as [->|He]; [apply orb_true_r|].
    rewrite E, (expired_evicts R p _ (expired_app R p pm rest He)). reflexivity.
  Qed.

  Lemma ops_monitor batch crashes :
    monitor (IOps R nkeys batch pre ms crashes) (model (IOps R nkeys batch pre ms crashes)) = true.
  Proof.
    cbn [monitor model]. rewrite W. cbn [negb orb]. fold d0. fold known.
    pose proof (eq_sym (app_nil_r ms)) as Eall.
    repeat (apply andb_true_intro; split).
    - exact (proj1 (prefix_facts ms [] Eall)).
    - apply forallb_forall. intros dmp Hd. apply in_map_iff in Hd as (c & <- & _).
      destruct (chunks_prefix batch ms (fst c)) as (rest & E). exact (proj1 (prefix_facts _ rest E)).
    - rewrite combine_map_r. apply forallb_forall. intros cr Hcr.
      apply in_map_iff in Hcr as (c & <- & _). cbn [fst snd].
      destruct (chunks_prefix batch ms (fst c)) as (rest & E).
      apply forallb_forall. intros p Hp. exact (prefix_checks _ rest p E Hp).
    - apply forallb_forall. intros p Hp. exact (prefix_checks ms [] p Eall Hp).
    - apply forallb_forall. intros p Hp. destruct (proj2 (prefix_facts ms [] Eall) p Hp) as [->|He]; [reflexivity|].
      fold (expired_by R p ms). rewrite He. apply orb_true_r.
  Qed.
End OpsMonitor.

Lemma expired_by_upserts R p pubs : expired_by R p (map (Upsert 0) pubs) = false.
Proof. unfold expired_by. induction pubs; cbn; auto. Qed.

Lemma upserts_map_upsert pubs : upserts (map (Upsert 0) pubs) = pubs.
Proof. unfold upserts. induction pubs as [|p r IH]; cbn; [reflexivity|]. now rewrite IH. Qed.

Lemma evict_monitor R now nkeys pubs :
  monitor (IEvict R now nkeys pubs) (model (IEvict R now nkeys pubs)) = true.
Proof.
  cbn [monitor model]. set (d := apply R empty (map (Upsert 0) pubs)).
  destruct (apply_empty R (map (Upsert 0) pubs)) as (C & P & H0).
  { apply Forall_forall. intros m H. apply in_map_iff in H as (p & <- & _). exact I. }
  fold d in C, P, H0. rewrite upserts_map_upsert in P, H0.
  assert (H : forall p, In p pubs -> holds d p).
  { intros p Hp. destruct (H0 p Hp) as [A|B]; [exact A|].
    rewrite expired_by_upserts in B. discriminate. }
  destruct (evict_eventually R d (now - R) now C (N.le_refl _)) as [E1 E2]. cbn zeta in *.
  apply forallb_forall. intros c Hc. apply in_map_iff in Hc as (k & <- & _). cbn [fst snd].
  set (K := N.of_nat k).
  destruct (pk (apply R d (scan (now - R) now d)) K) as [[ls q]|] eqn:E; cbn [option_map fst snd].
  - destruct (E1 _ _ _ E) as [Hd Hq]. destruct (C _ _ _ Hd) as [Kq _].
    apply existsb_exists. exists q. split.
    + apply filter_In. split; [eapply P; eauto|]. now apply N.eqb_eq.
    + rewrite !N.eqb_refl. cbn [andb]. now apply N.leb_le.
  - apply forallb_forall. intros p Hp. apply filter_In in Hp as [Hp Kp]. apply N.eqb_eq in Kp.
    destruct (H p Hp) as (ls & q & Hq & G). rewrite Kp in Hq.
    apply N.ltb_lt. destruct (N.lt_ge_cases (pts q) (now - R)) as [Lt|Ge].
    + apply ge_ts in G. lia.
    + rewrite (E2 _ _ _ Hq Ge) in E. discriminate.
Qed.

Lemma format_monitor data key8 key0 ok8 ok0 now :
  monitor (IFormat data key8 key0 ok8 ok0 now) (model (IFormat data key8 key0 ok8 ok0 now)) = true.
Proof.
  cbn [monitor model].
  set (o := dns_oracle (len data - 112) (len data - 104) ok8 ok0).
  set (ko := key_oracle (firstn 32 data) key8 key0).
  destruct (bytes_eqb (firstn 32 (skipn 8 data)) (firstn 32 data) && negb (Bool.eqb key8 key0)) eqn:Guard;
    [reflexivity|]. cbn [orb].
  assert (K0 : ko (firstn 32 data) = key0).
  { unfold ko, key_oracle. now rewrite bytes_eqb_refl. }
  assert (K8 : ko (firstn 32 (skipn 8 data)) = key8).
  { unfold ko, key_oracle. destruct (bytes_eqb (firstn 32 (skipn 8 data)) (firstn 32 data)); auto.
    cbn [andb] in Guard. apply negb_false_iff in Guard. apply eqb_prop in Guard. auto. }
  assert (O0 : o (skipn 104 data) = ok0).
  { unfold o, dns_oracle. rewrite len_skipn. cbn [N.of_nat]. now rewrite N.eqb_refl. }
  assert (O8 : 112 <= len data -> o (skipn 104 (skipn 8 data)) = ok8).
  { intros L. unfold o, dns_oracle. rewrite !len_skipn.
    change (N.of_nat 104) with 104. change (N.of_nat 8) with 8.
    destruct (N.eqb_spec (len data - 8 - 104) (len data - 104)); [lia|].
    replace (len data - 8 - 104) with (len data - 112) by lia. now rewrite N.eqb_refl. }
  set (is_packet := key0 && ok0 && (104 <=? len data) && (len data <=? 1104)).
  assert (F0 : forall p, from_bytes_unchecked ko o data = Ok p <-> p = data /\ is_packet = true).
  { intros p. rewrite from_bytes_unchecked_ok, K0, O0. reflexivity. }
  destruct is_packet eqn:IP.
  - pose proof (proj2 (F0 data) (conj eq_refl eq_refl)) as Hd. rewrite Hd. cbn [negb orb andb].
    apply andb_true_intro. split.
    + (* the stored value is a raw packet: the fallback reads it unless its tail parses too *)
      destruct (key8 && ok8) eqn:T8; [reflexivity|].
      rewrite (legacy_roundtrip ko o data); [apply bytes_eqb_refl|exact Hd|].
      intros p Hp. apply from_bytes_unchecked_ok in Hp as [_ Hp].
      rewrite K8, len_skipn in Hp. change (N.of_nat 8) with 8 in Hp.
      apply andb_prop in Hp as [Hp _]. apply andb_prop in Hp as [Hp L]. apply N.leb_le in L.
      rewrite O8, T8 in Hp by lia. discriminate.
    + rewrite (serialize_roundtrip (fun _ => key0) (fun _ => ok0) now data).
      * cbn [res_eqb]. rewrite bytes_eqb_refl, len_serialize. apply N.eqb_refl.
      * apply from_bytes_unchecked_ok. split; [reflexivity|exact IP].
  - destruct (from_bytes_unchecked ko o data) as [p| |]; try reflexivity.
    destruct (proj1 (F0 p) eq_refl) as [_ E]. discriminate E.
Qed.

Lemma model_monitor : forall i, monitor i (model i) = true.
Proof.
  intros [R nkeys batch pre ms crashes|data key8 key0 ok8 ok0 now|R now nkeys pubs].
  - destruct (wf_ops R nkeys pre ms) eqn:W.
    + now apply ops_monitor.
    + cbn [monitor model]. now rewrite W.
  - apply format_monitor.
  - apply evict_monitor.
Qed.
