(* C25 — proofs about the DirectAddrUpdateState scheduling model.  An enabled event of a run task
   rewrites the cell of that task in the task list as tstep says (enabled_cell_step), so what such
   an event does is checked on one cell: it keeps the invariant inv_parts, of which the record Inv
   is a view (inv_task); it keeps a trigger pending (ns_task); it lowers the measure mu (tstep_tw).
   The events of the actor and the environment are read through enabled_spec.  Under ReleaseFirst
   a stored request always has a trigger pending (rf_inv); held_unsent is where the order is used. *)
From V Require Import Lib.Base Lib.Lists Lib.Trace Model.C25.
Import C25.
Open Scope N_scope.

Lemma find_task_in l k : NoDup (map tid l) -> In k l -> find_task (tid k) l = Some k.
Proof.
  unfold find_task. induction l as [|a l IH]; cbn [find map In]; [tauto|]. intros Hn [->|Hk].
  - now rewrite N.eqb_refl.
  - inversion Hn as [|x y Hnot Hn']; subst.
    destruct (N.eqb_spec (tid a) (tid k)) as [E|_]; [|auto].
    exfalso. apply Hnot. rewrite E. now apply in_map.
Qed.

Lemma task_is_spec s t p : NoDup (map tid (tasks s)) ->
  (task_is s t p = true <-> exists k, In k (tasks s) /\ tid k = t /\ p k = true).
Proof.
  intros Hn. unfold task_is. split.
  - destruct (find_task t (tasks s)) as [k|] eqn:Hf; [|discriminate]. intros Hp.
    apply find_some in Hf as [Hk E]. apply N.eqb_eq in E. eauto.
  - intros (k & Hk & <- & Hp). now rewrite (find_task_in _ _ Hn Hk).
Qed.

Lemma upd_notin t f l : ~ In t (map tid l) -> upd t f l = l.
Proof.
  unfold upd. induction l as [|a l IH]; cbn; auto. intros H.
  destruct (tid a =? t) eqn:E; [apply N.eqb_eq in E; tauto|]. f_equal. apply IH. tauto.
Qed.

Lemma del_notin t l : ~ In t (map tid l) -> del t l = l.
Proof.
  unfold del. induction l as [|a l IH]; cbn; auto. intros H.
  destruct (tid a =? t) eqn:E; [apply N.eqb_eq in E; tauto|]. cbn. f_equal. apply IH. tauto.
Qed.

Lemma task_split l k :
  NoDup (map tid l) -> In k l ->
  exists l1 l2, l = l1 ++ k :: l2 /\ (forall f, upd (tid k) f l = l1 ++ f k :: l2) /\ del (tid k) l = l1 ++ l2.
Proof.
  intros Hn Hk. apply in_split in Hk as (l1 & l2 & ->).
  rewrite map_app in Hn. apply NoDup_remove_2 in Hn.
  assert (H1 : ~ In (tid k) (map tid l1)) by (intros H; apply Hn, in_or_app; now left).
  assert (H2 : ~ In (tid k) (map tid l2)) by (intros H; apply Hn, in_or_app; now right).
  exists l1, l2. split; [reflexivity|]. unfold upd, del. split; [intros f|].
  - rewrite map_app. cbn [map]. rewrite N.eqb_refl. f_equal; [|f_equal]; now apply upd_notin.
  - rewrite filter_app. cbn [filter]. rewrite N.eqb_refl. f_equal; now apply del_notin.
Qed.

Lemma steps_orun o cap tr : forall s, steps o cap s tr = orun (step o cap) s tr.
Proof. induction tr as [|e tr IH]; intros s; cbn; [reflexivity|]. destruct (step o cap s e); auto. Qed.

Lemma step_some o cap s e s' : step o cap s e = Some s' -> enabled o cap s e = true /\ s' = apply s e.
Proof. unfold step. destruct (enabled o cap s e); [intros [= <-]; auto|discriminate]. Qed.

Lemma sres_eqb_eq a b : sres_eqb a b = true -> a = b.
Proof. destruct a, b; cbn; try discriminate; auto. intros H. apply N.eqb_eq in H. now subst. Qed.
Lemma reason_eqb_eq a b : reason_eqb a b = true -> a = b.
Proof. destruct a, b; cbn; try discriminate; auto. Qed.
Lemma tres_eqb_eq a b : tres_eqb a b = true -> a = b.
Proof.
  destruct a, b; cbn; try discriminate; auto.
  - intros H. apply andb_prop in H as [H1 H2]. apply reason_eqb_eq in H1. apply N.eqb_eq in H2. now subst.
  - intros H. apply reason_eqb_eq in H. now subst.
  - intros H. apply reason_eqb_eq in H. now subst.
Qed.
Lemma reason_eqb_refl a : reason_eqb a a = true.
Proof. now destruct a. Qed.
Lemma sres_eqb_refl a : sres_eqb a a = true.
Proof. destruct a; cbn; auto. apply N.eqb_refl. Qed.
Lemma tres_eqb_refl a : tres_eqb a a = true.
Proof. destruct a; cbn; rewrite ?reason_eqb_refl, ?N.eqb_refl; auto. Qed.
Lemma ev_eqb_refl a : ev_eqb a a = true.
Proof.
  destruct a; cbn; rewrite ?reason_eqb_refl, ?sres_eqb_refl, ?tres_eqb_refl, ?N.eqb_refl; auto.
  now destruct e.
Qed.

Lemma is_ph_eq p k : is_ph p k = true -> ph k = p.
Proof. unfold is_ph. destruct p, (ph k); auto; discriminate. Qed.

Lemma enabled_spec o cap s e : enabled o cap s e = true ->
  match e with
  | ESched _ (SStart t) => lock s = false /\ t = next s
  | ESched _ SBusy => lock s = true
  | ERecv => got s = false /\ 0 < doneq s
  | ETry r => got s = true /\
      match r with
      | TStart w t => lock s = false /\ t = next s /\ want s = Some w
      | TBusy => lock s = true
      | TNoWant => want s = None
      | _ => True
      end
  | _ => True
  end.
Proof.
  destruct e as [b| |w r| |r|t|t|t|t|t]; cbn [enabled]; auto; intros En.
  - apply andb_prop in En as [_ En]. apply sres_eqb_eq in En as ->.
    unfold sched_result. destruct (lock s), (down s), (empty s); auto.
  - apply andb_prop in En as [G Q]. apply negb_true_iff in G. apply N.ltb_lt in Q. auto.
  - apply andb_prop in En as [G En]. apply tres_eqb_eq in En as ->. split; [exact G|].
    unfold try_result. destruct (lock s), (want s), (down s), (empty s); auto.
Qed.

(* what a step of a run task does to its own record, [] when the task ends; the one place where
   the order of release and send is read *)
Inductive tstep (o : order) : ev -> task -> list task -> Prop :=
| TsWork k : ph k = Spawned -> tstep o (EWork (tid k)) k [set_ph Worked k]
| TsStore k : ph k = Worked -> tstep o (EStore (tid k)) k [set_ph Stored k]
| TsRelease k : ph k = Stored -> rel k = false -> (o = SendFirst -> snt k = true) ->
    tstep o (ERelease (tid k)) k [set_rel k]
| TsSend k : ph k = Stored -> snt k = false -> (o = ReleaseFirst -> rel k = true) ->
    tstep o (ESend (tid k)) k [set_snt k]
| TsEnd k : rel k = true -> snt k = true -> tstep o (EEnd (tid k)) k [].

Definition task_ev (e : ev) : bool :=
  match e with EWork _ | EStore _ | ERelease _ | ESend _ | EEnd _ => true | _ => false end.

Inductive cell_step (o : order) (s : st) (e : ev) : Prop :=
| CellStep l1 k l2 r : tstep o e k r -> tasks s = l1 ++ k :: l2 ->
    tasks (apply s e) = l1 ++ r ++ l2 -> cell_step o s e.

Lemma enabled_cell_step o cap s e :
  NoDup (map tid (tasks s)) -> enabled o cap s e = true -> task_ev e = true -> cell_step o s e.
Proof.
  intros Hn En Ht.
  destruct e as [b| |w r| |r|t|t|t|t|t]; try discriminate Ht; clear Ht; cbn [enabled] in En;
    [| | |apply andb_prop in En as [En _]|]; apply (task_is_spec _ _ _ Hn) in En as (k & Hk & <- & Hp);
    destruct (task_split _ _ Hn Hk) as (l1 & l2 & E & Hu & Hd).
  - apply is_ph_eq in Hp. apply (CellStep _ _ _ l1 k l2 _ (TsWork o k Hp) E), Hu.
  - apply is_ph_eq in Hp. apply (CellStep _ _ _ l1 k l2 _ (TsStore o k Hp) E), Hu.
  - apply andb_prop in Hp as [Hp O]. apply andb_prop in Hp as [P R].
    apply is_ph_eq in P. apply negb_true_iff in R.
    refine (CellStep _ _ _ l1 k l2 _ (TsRelease o k P R _) E (Hu _)). now intros ->.
  - apply andb_prop in Hp as [Hp O]. apply andb_prop in Hp as [P S].
    apply is_ph_eq in P. apply negb_true_iff in S.
    refine (CellStep _ _ _ l1 k l2 _ (TsSend o k P S _) E (Hu _)). now intros ->.
  - apply andb_prop in Hp as [Hp S]. apply andb_prop in Hp as [_ R].
    exact (CellStep _ _ _ l1 k l2 _ (TsEnd o k R S) E Hd).
Qed.

Definition ord_ok (o : order) (k : task) : Prop :=
  match o with
  | ReleaseFirst => snt k = true -> rel k = true
  | SendFirst => rel k = true -> snt k = true
  end.

Record Inv (o : order) (s : st) : Prop := {
  inv_nodup : NoDup (map tid (tasks s));
  inv_lt : forall k, In k (tasks s) -> tid k < next s;
  inv_free : lock s = false -> forall k, In k (tasks s) -> rel k = true;
  inv_held : lock s = true -> exists k, In k (tasks s) /\ rel k = false;
  inv_one : forall k1 k2, In k1 (tasks s) -> In k2 (tasks s) ->
            rel k1 = false -> rel k2 = false -> k1 = k2;
  inv_ph : forall k, In k (tasks s) -> rel k = true \/ snt k = true -> ph k = Stored;
  inv_ord : forall k, In k (tasks s) -> ord_ok o k
}.

(* Inv is proved as inv_parts: its per-task clauses are task_ok, its three clauses about the lock
   (inv_free, inv_held, inv_one) become holder_ok, a statement about the list of holders, which a
   task event changes in one cell (holder_cell). *)
Definition task_ok (o : order) (n : N) (k : task) : Prop :=
  tid k < n /\ (rel k = true \/ snt k = true -> ph k = Stored) /\ ord_ok o k.

Definition one_holder (s : st) : Prop :=
  (holders s = [] /\ lock s = false) \/ (exists k, holders s = [k] /\ lock s = true).

Local Notation held := (filter (fun k => negb (rel k))).

(* one_holder for a lock and a task list on their own: [one_holder s] is
   [holder_ok (lock s) (tasks s)] by conversion *)
Definition holder_ok (b : bool) (l : list task) : Prop :=
  (held l = [] /\ b = false) \/ (exists k, held l = [k] /\ b = true).

Lemma held_in l k : In k (held l) <-> In k l /\ rel k = false.
Proof. now rewrite filter_In, negb_true_iff. Qed.

Definition inv_parts (o : order) (s : st) : Prop :=
  NoDup (map tid (tasks s)) /\ (forall k, In k (tasks s) -> task_ok o (next s) k) /\
  holder_ok (lock s) (tasks s).

Lemma inv_of_parts o s : inv_parts o s -> Inv o s.
Proof.
  unfold inv_parts, holder_ok. intros (A & Q & Hh).
  assert (Hu : forall k, In k (tasks s) -> rel k = false -> held (tasks s) = [k] /\ lock s = true).
  { intros k Hk R. assert (Hi : In k (held (tasks s))) by (apply held_in; auto).
    destruct Hh as [[E _]|(k0 & E & L)]; rewrite E in Hi; [destruct Hi|].
    destruct Hi as [->|[]]. auto. }
  constructor; try (intros k Hk; apply (Q k Hk)); [exact A| | |].
  - intros L k Hk. destruct (rel k) eqn:R; [reflexivity|]. destruct (Hu k Hk R) as [_ L']. congruence.
  - intros L. destruct Hh as [[_ L']|(k & E & _)]; [congruence|]. exists k. apply held_in.
    rewrite E. now left.
  - intros k1 k2 H1 H2 R1 R2. destruct (Hu k1 H1 R1) as [E1 _], (Hu k2 H2 R2) as [E2 _]. congruence.
Qed.

Lemma inv_init o e0 : inv_parts o (init e0).
Proof. split; [constructor|]. split; [intros k []|]. left. split; reflexivity. Qed.

Lemma tstep_ok o e k r n : tstep o e k r -> task_ok o n k -> forall k', In k' r -> task_ok o n k'.
Proof.
  intros Ht (Hlt & Hp & Ho) k' Hk'.
  destruct Ht as [k P|k P|k P R O|k P S O|k R S]; [| | | |destruct Hk'];
    destruct Hk' as [<-|[]]; (split; [exact Hlt|]).
  - (* a task that has released or sent is Stored *)
    split; [|exact Ho]. intros X. rewrite (Hp X) in P. discriminate.
  - split; [reflexivity|exact Ho].
  - split; [intros _; exact P|]. destruct o; intros _; [exact (O eq_refl)|reflexivity].
  - split; [intros _; exact P|]. destruct o; intros _; [reflexivity|exact (O eq_refl)].
Qed.

(* the cell of a holder is the whole of [held]; any other cell can be left out *)
Lemma holder_cell b l1 k l2 :
  holder_ok b (l1 ++ k :: l2) <->
  if rel k then holder_ok b (l1 ++ l2) else held l1 = [] /\ held l2 = [] /\ b = true.
Proof.
  unfold holder_ok. rewrite !filter_app. cbn [filter]. destruct (rel k); cbn [negb]; [reflexivity|].
  split.
  - intros [[H _]|(k0 & H & L)]; [now apply app_eq_nil in H as [_ H]|].
    apply app_eq_unit in H as [[-> H]|[_ H]]; [|discriminate]. now injection H as _ ->.
  - intros (-> & -> & L). right. now exists k.
Qed.

Lemma inv_task o cap s e :
  inv_parts o s -> enabled o cap s e = true -> task_ev e = true -> inv_parts o (apply s e).
Proof.
  intros (A & Q & Hh) En Te. destruct (enabled_cell_step o cap s e A En Te) as [l1 k l2 r Ht E E'].
  rewrite E in A, Q, Hh. apply holder_cell in Hh.
  pose proof (tstep_ok o e k r (next s) Ht (Q k (in_elt _ _ _))) as Hr.
  assert (N' : next (apply s e) = next s) by (destruct Ht; reflexivity).
  unfold inv_parts. rewrite E', N'. split; [|split].
  - rewrite !map_app in A |- *.
    destruct Ht; cbn [map app tid set_ph set_rel set_snt] in *; try exact A. eapply NoDup_remove_1, A.
  - intros k' Hk'. apply in_app_iff in Hk' as [Hk'|Hk']; [apply Q, in_or_app; auto|].
    apply in_app_iff in Hk' as [Hk'|Hk']; [apply Hr, Hk'|apply Q, in_or_app; right; now right].
  - destruct Ht as [k P|k P|k P R O|k P S O|k R S]; cbn [app apply lock set_lock set_tasks set_doneq];
      try (apply holder_cell; exact Hh).
    + (* release: the holder's cell was all of [held] *)
      apply holder_cell. rewrite R in Hh. destruct Hh as (H1 & H2 & _).
      left. rewrite filter_app, H1, H2. split; reflexivity.
    + now rewrite R in Hh.
Qed.

Lemma inv_spawn o s : inv_parts o s -> lock s = false -> inv_parts o (spawn s (next s)).
Proof.
  intros (A & Q & Hh) L. split; [|split].
  - cbn. rewrite map_app. apply NoDup_snoc; [exact A|]. intros Hi.
    apply in_map_iff in Hi as (k & E & Hk). apply Q in Hk as [Hlt _]. cbn in E. lia.
  - intros k Hk. cbn in Hk. apply in_app_iff in Hk as [Hk|[<-|[]]].
    + destruct (Q k Hk) as (Hlt & Hp & Ho). repeat split; auto. cbn. lia.
    + repeat split; cbn; [lia|intros [X|X]; discriminate|destruct o; discriminate].
  - unfold holder_ok in *. right. cbn. rewrite filter_app.
    destruct Hh as [[-> _]|(k & _ & L')]; [|congruence]. eexists. split; reflexivity.
Qed.

Lemma inv_step o cap s e s' : inv_parts o s -> step o cap s e = Some s' -> inv_parts o s'.
Proof.
  intros HI Hs. apply step_some in Hs as [En ->].
  destruct (task_ev e) eqn:Te; [exact (inv_task o cap s e HI En Te)|]. apply enabled_spec in En.
  (* inv_parts reads only tasks, lock, next: an event that leaves them alone keeps it by conversion *)
  destruct e as [b| |w r| |r|t|t|t|t|t]; try discriminate Te; cbn [apply]; try exact HI.
  - destruct r as [t| | |]; try exact HI. destruct En as [L ->]. now apply inv_spawn.
  - destruct En as [_ En]. destruct r as [w t|w|w| |]; try exact HI.
    destruct En as (L & -> & _). exact (inv_spawn o s HI L).
Qed.

Lemma inv_steps o cap tr s s' : inv_parts o s -> steps o cap s tr = Some s' -> inv_parts o s'.
Proof. rewrite steps_orun. apply orun_inv. intros s1 e s2. apply inv_step. Qed.

Lemma inv_reach o cap e0 tr s : steps o cap (init e0) tr = Some s -> Inv o s.
Proof. intros H. eapply inv_of_parts, inv_steps; [apply inv_init | eassumption]. Qed.

Definition one_run (s : st) : Prop :=
  NoDup (map tid (tasks s)) /\
  (forall k1 k2, In k1 (tasks s) -> In k2 (tasks s) -> rel k1 = false -> rel k2 = false -> k1 = k2) /\
  (lock s = true <-> exists k, In k (tasks s) /\ rel k = false) /\
  (forall k, In k (tasks s) -> ph k = Spawned \/ ph k = Worked -> rel k = false).

Lemma inv_one_run o s : Inv o s -> one_run s.
Proof.
  intros [A B C D E F G]. repeat split; auto.
  - intros [k [H1 H2]]. destruct (lock s) eqn:L; auto. rewrite (C eq_refl k H1) in H2. discriminate.
  - intros k Hk Hp. destruct (rel k) eqn:R; auto.
    rewrite (F k Hk (or_introl R)) in Hp. destruct Hp; discriminate.
Qed.

Lemma at_most_one_run o cap e0 tr s :
  steps o cap (init e0) tr = Some s -> one_run s.
Proof. intros H. eapply inv_one_run, inv_reach, H. Qed.

Definition trigger_pending (s : st) : Prop :=
  0 < doneq s \/ got s = true \/ exists k, In k (tasks s) /\ snt k = false.

Lemma pending_trigger_spec s : pending_trigger s = true <-> trigger_pending s.
Proof.
  unfold pending_trigger, trigger_pending. eapply iff_trans; [|apply or_assoc].
  apply orb_iff; [apply orb_iff; [apply N.ltb_lt|apply iff_refl]|].
  apply existsb_iff. intros k. apply negb_true_iff.
Qed.

(* something will still make the actor call try_run for a stored request; Good spells it out as
   its first clause *)
Definition not_stuck (s : st) : Prop := forall w, want s = Some w -> trigger_pending s.

(* why ReleaseFirst works: whoever holds the guard has yet to send its done signal *)
Lemma held_unsent s : Inv ReleaseFirst s -> lock s = true -> exists k, In k (tasks s) /\ snt k = false.
Proof.
  intros HI L. destruct (inv_held _ _ HI L) as [k [H1 H2]]. exists k. split; [exact H1|].
  pose proof (inv_ord _ _ HI k H1) as Ho. cbn in Ho.
  destruct (snt k); [|reflexivity]. rewrite Ho in H2; auto.
Qed.

Lemma ns_task o cap s e :
  NoDup (map tid (tasks s)) -> enabled o cap s e = true -> task_ev e = true ->
  trigger_pending s -> trigger_pending (apply s e).
Proof.
  intros Hn En Te HT. destruct (enabled_cell_step o cap s e Hn En Te) as [l1 k l2 r Ht E E'].
  unfold trigger_pending in *. rewrite E'. rewrite E in HT. clear E E' Hn En Te.
  destruct HT as [Q|[G|(k0 & Hk & Hs)]].
  - left. destruct Ht; cbn [apply doneq set_tasks set_lock set_doneq]; try exact Q. lia.
  - right; left. destruct Ht; exact G.
  - apply in_elt_inv in Hk as [<-|Hk].
    + (* the task that moves stays unsent, or sends, or had sent *)
      destruct Ht as [k P|k P|k P R O|k P S O|k R S]; [| | |left; cbn; lia|congruence];
        right; right; eexists; (split; [apply in_elt|exact Hs]).
    + right; right. exists k0. split; [|exact Hs]. apply in_or_app.
      apply in_app_or in Hk as [Hk|Hk]; [left; exact Hk|right; apply in_or_app; right; exact Hk].
Qed.

Lemma ns_step cap s e s' :
  inv_parts ReleaseFirst s -> not_stuck s -> step ReleaseFirst cap s e = Some s' -> not_stuck s'.
Proof.
  intros HI HN Hs. apply step_some in Hs as [En ->]. intros w W.
  destruct (task_ev e) eqn:Te.
  { apply (ns_task _ cap s e (proj1 HI) En Te), (HN w). destruct e; try discriminate Te; exact W. }
  apply enabled_spec in En.
  destruct e as [b| |w0 r| |r|t|t|t|t|t]; try discriminate Te; cbn [apply] in *.
  - exact (HN w W).
  - exact (HN w W).
  - destruct r as [t| | |]; try exact (HN w W).
    + (* the run just started has not sent *)
      right; right. eexists. split; [apply in_app_iff; right; now left|reflexivity].
    + (* the request is stored because a run holds the guard *)
      right; right. exact (held_unsent s (inv_of_parts _ s HI) En).
  - right; left. reflexivity.
  - destruct En as [_ En]. destruct r as [w1 t|w1|w1| |]; try discriminate W.
    + cbn in W. congruence.
    + right; right. exact (held_unsent s (inv_of_parts _ s HI) En).
Qed.

Definition rf_inv (s : st) : Prop := inv_parts ReleaseFirst s /\ not_stuck s.

Lemma rf_step cap s e s' : rf_inv s -> step ReleaseFirst cap s e = Some s' -> rf_inv s'.
Proof. intros [HI HN] Hs. split; [eapply inv_step|eapply ns_step]; eauto. Qed.

Lemma rf_steps cap tr s s' : rf_inv s -> steps ReleaseFirst cap s tr = Some s' -> rf_inv s'.
Proof. rewrite steps_orun. apply orun_inv, rf_step. Qed.

Lemma rf_init e0 : rf_inv (init e0).
Proof. split; [apply inv_init|]. intros w. discriminate. Qed.

Lemma no_stuck_request cap e0 tr s w :
  steps ReleaseFirst cap (init e0) tr = Some s -> want s = Some w -> trigger_pending s.
Proof. intros H. exact (proj2 (rf_steps cap tr _ s (rf_init e0) H) w). Qed.

Definition Good (s : st) : Prop :=
  (forall w, want s = Some w -> trigger_pending s) /\ one_holder s.

Lemma onerun_b_spec s : onerun_b s = true <-> one_holder s.
Proof.
  unfold onerun_b, one_holder. destruct (holders s) as [|k [|k2 r]].
  - rewrite negb_true_iff. split; [auto|]. intros [[_ H]|[k [H _]]]; [auto|discriminate].
  - split; [intros H; right; eauto|]. intros [[H _]|[k' [_ H]]]; [discriminate|auto].
  - split; [discriminate|]. intros [[H _]|[k' [H _]]]; discriminate.
Qed.

Lemma good_b_spec s : good_b s = true <-> Good s.
Proof.
  unfold good_b, Good, nostuck_b. apply andb_iff; [|apply onerun_b_spec].
  apply some_iff. intros _. apply pending_trigger_spec.
Qed.

Lemma all_states_spec tr : forall s,
  all_states s tr = true <-> forall n, good_b (run_evs s (firstn n tr)) = true.
Proof.
  induction tr as [|e tr IH]; intros s; cbn [all_states].
  - rewrite andb_true_r. split.
    + intros H n. now rewrite firstn_nil.
    + intros H. exact (H O).
  - rewrite andb_true_iff, IH. split.
    + intros [H0 H] [|n]; cbn; [exact H0 | apply H].
    + intros H. split; [exact (H O) | intros n; exact (H (S n))].
Qed.

Lemma good_of_inv s : rf_inv s -> good_b s = true.
Proof. intros [HI HN]. apply good_b_spec. split; [exact HN|apply HI]. Qed.

Lemma all_states_of_run cap tr : forall s s',
  rf_inv s -> steps ReleaseFirst cap s tr = Some s' -> all_states s tr = true.
Proof.
  induction tr as [|e tr IH]; cbn [all_states steps]; intros s s' HR H; rewrite (good_of_inv s HR).
  - reflexivity.
  - destruct (step ReleaseFirst cap s e) as [s1|] eqn:E; [|discriminate].
    pose proof (rf_step cap s e s1 HR E) as HR1. apply step_some in E as [_ ->]. eauto.
Qed.

Lemma keep_enabled_run o cap l : forall s l' s',
  keep_enabled o cap s l = (l', s') -> orun (step o cap) s l' = Some s'.
Proof.
  induction l as [|e l IH]; cbn; intros s l' s' H.
  - injection H as <- <-. reflexivity.
  - destruct (step o cap s e) as [s1|] eqn:E.
    + destruct (keep_enabled o cap s1 l) as [r s2] eqn:K. injection H as <- <-.
      cbn. rewrite E. eapply IH; eauto.
    + injection H as <- <-. reflexivity.
Qed.

Lemma exec_all_run o cap cs : forall s, exists s', orun (step o cap) s (exec_all o cap s cs) = Some s'.
Proof.
  induction cs as [|c cs IH]; cbn; intros s; [eauto|].
  destruct (keep_enabled o cap s (exec o cap s c)) as [l s1] eqn:K.
  apply keep_enabled_run in K. rewrite orun_app, K. apply IH.
Qed.

Lemma model_trace_run o i :
  exists s', steps o DONE_CAP (init (fst i)) (model_trace o i) = Some s'.
Proof.
  unfold model_trace. rewrite steps_orun.
  destruct (keep_enabled o DONE_CAP (init (fst i)) (startup (init (fst i)))) as [l0 s1] eqn:K.
  apply keep_enabled_run in K. rewrite orun_app, K. apply exec_all_run.
Qed.

Lemma model_monitor i : monitor i (model i) = true.
Proof.
  unfold monitor, model. destruct (model_trace_run code_order i) as [s' H].
  exact (all_states_of_run _ _ _ s' (rf_init _) H).
Qed.

Lemma model_agrees i : agree i (model i) = true.
Proof.
  unfold agree, model. cbn. apply list_eqb_refl, ev_eqb_refl.
Qed.

Lemma monitor_spec e0 cs tr :
  monitor (e0, cs) (Ok tr) = true <-> forall n, Good (run_evs (init e0) (firstn n tr)).
Proof.
  unfold monitor. cbn [fst]. rewrite all_states_spec.
  split; intros H n; apply good_b_spec, H.
Qed.

Definition internal (e : ev) : bool :=
  match e with ESetRelays _ | EShutdown | ESched _ _ => false | _ => true end.

Lemma progress_enabled cap s :
  1 <= cap -> NoDup (map tid (tasks s)) -> trigger_pending s ->
  exists e, internal e = true /\ enabled ReleaseFirst cap s e = true.
Proof.
  intros Hcap Hn HT.
  destruct (got s) eqn:G.
  { exists (ETry (try_result s)). cbn. now rewrite G, tres_eqb_refl. }
  destruct (N.ltb_spec 0 (doneq s)) as [Q|Q].
  { exists ERecv. cbn. rewrite G. split; [reflexivity|]. apply N.ltb_lt, Q. }
  destruct HT as [Q'|[G'|(k & Hk & Hs)]]; [lia|congruence|].
  assert (Hen : forall p, p k = true -> task_is s (tid k) p = true)
    by (intros p Hp; apply (task_is_spec _ _ _ Hn); eauto).
  destruct (ph k) eqn:P.
  - exists (EWork (tid k)). split; auto. cbn. apply Hen. unfold is_ph. now rewrite P.
  - exists (EStore (tid k)). split; auto. cbn. apply Hen. unfold is_ph. now rewrite P.
  - destruct (rel k) eqn:R.
    + exists (ESend (tid k)). split; auto. cbn.
      rewrite Hen; [apply N.ltb_lt; lia|]. unfold is_ph. now rewrite P, Hs, R.
    + exists (ERelease (tid k)). split; auto. cbn. apply Hen. unfold is_ph. now rewrite P, R.
Qed.

(* not sent weighs 3: ESend queues a done message (2 in mu), ERecv trades it for got (1).  A
   Stored task weighs 5 at most; Worked is one step from there (6), Spawned one more (7) *)
Definition tw (k : task) : N :=
  match ph k with
  | Spawned => 7
  | Worked => 6
  | Stored => 1 + (if rel k then 0 else 1) + (if snt k then 0 else 3)
  end.
Fixpoint sumw (l : list task) : N := match l with [] => 0 | k :: l' => tw k + sumw l' end.
Definition mu (s : st) : N := sumw (tasks s) + 2 * doneq s + (if got s then 1 else 0).

Lemma sumw_app l1 l2 : sumw (l1 ++ l2) = sumw l1 + sumw l2.
Proof. induction l1 as [|a l1 IH]; cbn [sumw app]; lia. Qed.

Lemma tstep_tw o e k r : tstep o e k r ->
  sumw r + (match e with ESend _ => 3 | _ => 1 end) <= tw k.
Proof.
  destruct 1 as [k P|k P|k P R _|k P S _|k R S]; cbn [sumw]; unfold tw; cbn [ph rel snt set_ph set_rel set_snt].
  - rewrite P. lia.
  - rewrite P. destruct (rel k), (snt k); lia.
  - rewrite P, R. lia.
  - rewrite P, S. lia.
  - rewrite R, S. destruct (ph k); lia.
Qed.

Lemma variant o cap s e s' :
  Inv o s -> step o cap s e = Some s' -> internal e = true ->
  (forall w t, e <> ETry (TStart w t)) -> mu s' < mu s.
Proof.
  intros Hn%inv_nodup Hs Hint Hne. apply step_some in Hs as [En ->]. unfold mu.
  destruct (task_ev e) eqn:Te.
  - destruct (enabled_cell_step o cap s e Hn En Te) as [l1 k l2 r Ht E E'].
    rewrite E', E, !sumw_app. apply tstep_tw in Ht. cbn [sumw]. clear -Ht Te.
    destruct e; try discriminate Te; cbn [apply set_tasks set_lock set_doneq doneq got]; lia.
  - apply enabled_spec in En.
    destruct e as [b| |w r| |r|t|t|t|t|t]; try discriminate;
      cbn [apply set_doneq set_got set_want tasks doneq got].
    + destruct En as [-> Q]. clear -Q. lia.
    + destruct En as [-> _]. clear -Hne.
      destruct r as [w t|w|w| |]; cbn; try lia. destruct (Hne w t eq_refl).
Qed.

(* the step excepted in variant *)
Lemma try_start_consumes o cap s w t s' :
  step o cap s (ETry (TStart w t)) = Some s' ->
  want s = Some w /\ want s' = None /\ In (mkTask t Spawned false false) (tasks s').
Proof.
  intros Hs. apply step_some in Hs as [En ->]. apply enabled_spec in En as (_ & _ & _ & W).
  repeat split; auto. cbn. apply in_app_iff. cbn. auto.
Qed.

Lemma pending_request_has_enabled_step cap e0 tr s w :
  1 <= cap -> steps ReleaseFirst cap (init e0) tr = Some s -> want s = Some w ->
  exists e, internal e = true /\ enabled ReleaseFirst cap s e = true.
Proof.
  intros Hc H W. destruct (rf_steps cap tr _ s (rf_init e0) H) as [HI HN].
  exact (progress_enabled cap s Hc (proj1 HI) (HN w W)).
Qed.

Lemma internal_steps_decrease_measure o cap e0 tr s e s' :
  steps o cap (init e0) tr = Some s -> step o cap s e = Some s' -> internal e = true ->
  (forall w t, e <> ETry (TStart w t)) -> mu s' < mu s.
Proof.
  intros H. eapply variant, inv_reach, H.
Qed.

(* The SendFirst order (guard dropped after the done signal, iroh as pinned): a request made while a run is in
   flight gets stuck: no trigger pending, no task alive, the lock free. *)
Definition stuck_trace : list ev :=
  [ESched Periodic (SStart 1); ESched RelayMapChange SBusy; EWork 1; EStore 1; ESend 1;
   ERecv; ETry TBusy; ERelease 1; EEnd 1].

Definition stuck_state : st := mkSt (Some RelayMapChange) false [] 0 false false false 2.

Lemma send_first_refuted :
  exists tr s w, steps SendFirst 8 (init false) tr = Some s /\
    want s = Some w /\ pending_trigger s = false /\ tasks s = [] /\ lock s = false /\
    (forall e, internal e = true -> enabled SendFirst 8 s e = false).
Proof.
  exists stuck_trace, stuck_state, RelayMapChange. vm_compute. repeat split; try reflexivity.
  intros e. destruct e as [b| |w r| |r|t|t|t|t|t]; try reflexivity; discriminate.
Qed.

(* non-vacuity: under ReleaseFirst a pending request is reachable, and the same schedule
   goes on to start the requested run *)
Example pending_reachable :
  exists s, steps ReleaseFirst 8 (init false)
              [ESched Periodic (SStart 1); ESched RelayMapChange SBusy; EWork 1; EStore 1;
               ERelease 1; ESend 1; ERecv] = Some s /\ want s = Some RelayMapChange.
Proof. eexists. vm_compute. split; reflexivity. Qed.

Example fixed_schedule_runs :
  exists s, steps ReleaseFirst 8 (init false)
              [ESched Periodic (SStart 1); ESched RelayMapChange SBusy; EWork 1; EStore 1;
               ERelease 1; ESend 1; ERecv; ETry (TStart RelayMapChange 2); EEnd 1] = Some s /\
            want s = None /\ lock s = true.
Proof. eexists. vm_compute. repeat split; reflexivity. Qed.

(* the harness script of the witness, as the model predicts it for both orders *)
Example witness_script_send_first :
  model_trace SendFirst (false, [CIns; CWork; CSend 0; CTry; CEnd 0]) =
  [ESched Periodic (SStart 1); ESetRelays false; ESched RelayMapChange SBusy; EWork 1; EStore 1;
   ESend 1; ERecv; ETry TBusy; ERelease 1; EEnd 1].
Proof. vm_compute. reflexivity. Qed.

Example witness_script_release_first :
  model_trace ReleaseFirst (false, [CIns; CWork; CSend 0; CTry; CEnd 0]) =
  [ESched Periodic (SStart 1); ESetRelays false; ESched RelayMapChange SBusy; EWork 1; EStore 1;
   ERelease 1; ESend 1; ERecv; ETry (TStart RelayMapChange 2); EEnd 1].
Proof. vm_compute. reflexivity. Qed.

Example monitor_rejects_stuck :
  monitor (false, [CIns; CWork; CSend 0; CTry; CEnd 0])
          (Ok (model_trace SendFirst (false, [CIns; CWork; CSend 0; CTry; CEnd 0]))) = false.
Proof. vm_compute. reflexivity. Qed.
