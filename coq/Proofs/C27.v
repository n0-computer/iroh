(* C27 — proofs about the net-report aggregation model.  The table theorems are three facts:
   list_min turns ++ into opt_min, a sorted table is determined by its lookups (sorted_ext),
   upd and merge act on lookups as opt_min.  Report::update is described field by field
   (update_eq); run_spec follows by snoc induction. *)
From V Require Import Lib.Base Lib.Lists Lib.Trace Model.C27.
From V Require Import Lib.LiaBool.
Import C27.
Open Scope N_scope.

Lemma opt_min_comm a b : opt_min a b = opt_min b a.
Proof. destruct a, b; cbn [opt_min]; [f_equal; apply N.min_comm|reflexivity..]. Qed.
Lemma opt_min_assoc a b c : opt_min (opt_min a b) c = opt_min a (opt_min b c).
Proof. destruct a, b, c; cbn [opt_min]; [f_equal; symmetry; apply N.min_assoc|reflexivity..]. Qed.
Lemma opt_min_none_r a : opt_min a None = a.
Proof. destruct a; reflexivity. Qed.
Lemma opt_min_some a b :
  (exists d, opt_min a b = Some d) <-> (exists d, a = Some d) \/ (exists d, b = Some d).
Proof. destruct a, b; cbn; split; eauto; intros [[d [=]]|[d [=]]]. Qed.

Lemma opt_min_medial a b c d :
  opt_min (opt_min a b) (opt_min c d) = opt_min (opt_min a c) (opt_min b d).
Proof.
  rewrite !opt_min_assoc. f_equal. rewrite <- !opt_min_assoc. f_equal. apply opt_min_comm.
Qed.

Lemma fold_min_init l : forall a b, fold_left N.min l (N.min a b) = N.min a (fold_left N.min l b).
Proof.
  induction l as [|c l IH]; intros a b; cbn [fold_left]; [reflexivity|].
  now rewrite <- N.min_assoc, IH.
Qed.

Lemma list_min_app l1 l2 : list_min (l1 ++ l2) = opt_min (list_min l1) (list_min l2).
Proof.
  destruct l1 as [|x l1]; [reflexivity|]. destruct l2 as [|y l2]; [now rewrite app_nil_r|].
  cbn [list_min app opt_min]. rewrite fold_left_app. cbn [fold_left]. now rewrite fold_min_init.
Qed.

Lemma list_min_opt_list o : list_min (opt_list o) = o.
Proof. now destruct o. Qed.

Lemma get_spec l u :
  get l u = opt_min (lookup (https l) u) (opt_min (lookup (ipv4 l) u) (lookup (ipv6 l) u)).
Proof. unfold get. now rewrite !list_min_app, !list_min_opt_list. Qed.

Lemma list_min_cons x l : list_min (x :: l) = opt_min (Some x) (list_min l).
Proof. exact (list_min_app [x] l). Qed.

Lemma list_min_spec l m : list_min l = Some m <-> In m l /\ forall y, In y l -> m <= y.
Proof.
  revert m; induction l as [|x l IH]; intros m; [cbn; split; [discriminate|intros [[] _]]|].
  rewrite list_min_cons. destruct (list_min l) as [n|] eqn:E; cbn [opt_min].
  - destruct (proj1 (IH n) eq_refl) as [Hn Hle]. split.
    + intros [= <-]. split; [destruct (N.min_spec x n) as [[_ ->]|[_ ->]]; [now left|now right]|].
      intros y [<-|Hy]; [lia|]. specialize (Hle y Hy). lia.
    + intros [Hm Hall]. f_equal. pose proof (Hall x (or_introl eq_refl)). pose proof (Hall n (or_intror Hn)).
      destruct Hm as [<-|Hm]; [lia|]. specialize (Hle m Hm). lia.
  - destruct l as [|z l]; [|discriminate E].
    split; [intros [= <-]; split; [now left|intros y [<-|[]]; lia]|intros [[<-|[]] _]; reflexivity].
Qed.

Lemma list_min_none l : list_min l = None <-> l = [].
Proof. destruct l; cbn; split; congruence. Qed.

(* k is below the first key of m, so below all of them when m is sorted *)
Definition lb (k : N) (m : table) : Prop :=
  match m with [] => True | (k', _) :: _ => k < k' end.

Lemma sortedb_cons k v t : sortedb ((k, v) :: t) = true <-> lb k t /\ sortedb t = true.
Proof.
  cbn [sortedb]. apply andb_iff; [|apply iff_refl].
  destruct t as [|[k' v'] t']; [apply true_iff|apply N.ltb_lt].
Qed.

Lemma lb_trans k k' t : k < k' -> lb k' t -> lb k t.
Proof. destruct t as [|[k2 v2] t]; cbn; lia. Qed.

Lemma lookup_lb m : forall k, sortedb m = true -> lb k m -> lookup m k = None.
Proof.
  induction m as [|[k' v'] t IH]; intros k Hs Hl; [reflexivity|].
  apply sortedb_cons in Hs as [Hl' Hs]. cbn [lb] in Hl. cbn [lookup].
  destruct (k =? k') eqn:E; [lia|]. apply IH; [exact Hs|]. eapply lb_trans; eauto.
Qed.

Lemma upd_lb x m k v : lb x m -> x < k -> lb x (upd m k v).
Proof.
  destruct m as [|[k' v'] t]; cbn [upd lb]; [auto|]. intros H1 H2.
  destruct (k <? k'); [cbn; auto|]. destruct (k =? k'); cbn; auto.
Qed.

Lemma upd_sorted m : forall k v, sortedb m = true -> sortedb (upd m k v) = true.
Proof.
  induction m as [|[k' v'] t IH]; intros k v Hs; [reflexivity|]. cbn [upd].
  destruct (k <? k') eqn:E1.
  - apply sortedb_cons. split; [cbn; lia|exact Hs].
  - apply sortedb_cons in Hs as [Hl Hs]. destruct (k =? k') eqn:E2.
    + apply sortedb_cons. auto.
    + apply sortedb_cons. split; [apply upd_lb; [exact Hl|lia]|apply IH; exact Hs].
Qed.

Lemma lookup_upd m : forall k v k', sortedb m = true ->
  lookup (upd m k v) k' = if k' =? k then opt_min (Some v) (lookup m k) else lookup m k'.
Proof.
  induction m as [|[k0 v0] t IH]; intros k v k' Hs; cbn [upd lookup].
  - destruct (k' =? k); reflexivity.
  - apply sortedb_cons in Hs as [Hl Hs].
    destruct (N.ltb_spec k k0) as [L|L]; [|destruct (N.eqb_spec k k0) as [->|N]]; cbn [lookup].
    + destruct (N.eqb_spec k' k) as [->|_]; [|reflexivity].
      rewrite (proj2 (N.eqb_neq k k0) (N.lt_neq _ _ L)), lookup_lb; [reflexivity|exact Hs|].
      exact (lb_trans _ _ _ L Hl).
    + destruct (k' =? k0); [|reflexivity]. cbn [opt_min]. destruct (N.ltb_spec v v0); f_equal; lia.
    + destruct (N.eqb_spec k' k0) as [->|_]; [|apply IH; exact Hs].
      rewrite (proj2 (N.eqb_neq k0 k) (not_eq_sym N)). reflexivity.
Qed.

Lemma in_lookup m : forall k v, sortedb m = true -> In (k, v) m -> lookup m k = Some v.
Proof.
  induction m as [|[k0 v0] t IH]; intros k v Hs Hin; [destruct Hin|].
  apply sortedb_cons in Hs as [Hl Hs]. cbn [lookup]. destruct Hin as [H|H].
  - inversion H; subst. now rewrite N.eqb_refl.
  - destruct (k =? k0) eqn:E.
    + assert (k = k0) by lia. subst k0.
      specialize (IH k v Hs H). rewrite (lookup_lb t k Hs Hl) in IH. discriminate.
    + now apply IH.
Qed.

Lemma lookup_in m : forall k v, lookup m k = Some v -> In (k, v) m.
Proof.
  induction m as [|[k0 v0] t IH]; intros k v H; [discriminate|]. cbn [lookup] in H.
  destruct (k =? k0) eqn:E.
  - inversion H; subst. left. f_equal. lia.
  - right. now apply IH.
Qed.

Lemma lookup_some m k : In k (map fst m) <-> exists v, lookup m k = Some v.
Proof.
  induction m as [|[k0 v0] t IH]; cbn [map fst In lookup].
  - split; [intros []|intros (v & [=])].
  - destruct (N.eqb_spec k k0) as [->|Ne]; [split; eauto|].
    rewrite <- IH. split; [intros [E|H]; [now destruct Ne|exact H]|now right].
Qed.

Lemma lookup_hd k v t : lookup ((k, v) :: t) k = Some v.
Proof. cbn. now rewrite N.eqb_refl. Qed.

Lemma sorted_ext a : forall b, sortedb a = true -> sortedb b = true ->
  (forall k, lookup a k = lookup b k) -> a = b.
Proof.
  induction a as [|[k1 v1] a IH]; intros [|[k2 v2] b] Ha Hb H.
  - reflexivity.
  - specialize (H k2). rewrite lookup_hd in H. discriminate H.
  - specialize (H k1). rewrite lookup_hd in H. discriminate H.
  - (* the smaller head key would be absent from the other table *)
    assert (k1 = k2).
    { destruct (N.lt_trichotomy k1 k2) as [L|[E|L]]; [|exact E|]; exfalso.
      - specialize (H k1). rewrite lookup_hd, (lookup_lb _ k1 Hb L) in H. discriminate.
      - specialize (H k2). rewrite lookup_hd, (lookup_lb _ k2 Ha L) in H. discriminate. }
    subst k2. pose proof (H k1) as H1. rewrite !lookup_hd in H1. injection H1 as <-.
    apply sortedb_cons in Ha as [La Ha]. apply sortedb_cons in Hb as [Lb Hb].
    f_equal. apply IH; auto. intros k. specialize (H k). cbn [lookup] in H.
    destruct (N.eqb_spec k k1) as [E|_]; [|exact H].
    rewrite E, (lookup_lb a k1 Ha La), (lookup_lb b k1 Hb Lb). reflexivity.
Qed.

Lemma run_snoc ps p : run (ps ++ [p]) = update (run ps) p.
Proof. unfold run. now rewrite fold_left_app. Qed.

(* the test [observed f] filters by, which the model writes inline *)
Definition obs_cond (f : N) (p : probe) : bool := (pkind p =? f + 1) && (fam (paddr p) =? f).

Lemma map_filter_snoc {A B} (g : A -> B) c l x :
  map g (filter c (l ++ [x])) = map g (filter c l) ++ (if c x then [g x] else []).
Proof. rewrite filter_app, map_app. cbn [filter]. now destruct (c x). Qed.

Lemma observed_snoc f ps p :
  observed f (ps ++ [p]) = observed f ps ++ (if obs_cond f p then [paddr p] else []).
Proof. apply map_filter_snoc. Qed.

(* varies_spec as a function of the observations: [varies_spec f ps] unfolds to [vs (observed f ps)] *)
Definition vs (obs : list sockaddr) : option bool :=
  match obs with
  | [] => None
  | [_] => None
  | a :: t => Some (negb (forallb (sa_eqb a) t))
  end.

(* the monitor writes this test as a match on the list; [fold] shows it there *)
Definition nonempty {A} (l : list A) : bool := match l with [] => false | _ => true end.

(* The latency tables after a history, without the rest of the report: every probe of a kind 0..2
   enters them, whatever family its address has (update_eq). *)
Definition kind_ok (p : probe) : bool := pkind p <=? 2.
Definition lat_run (ps : list probe) : latencies :=
  fold_left (fun l p => if kind_ok p then update_relay l (prelay p) (platency p) (pkind p) else l) ps lat_default.

Lemma lat_run_snoc ps p :
  lat_run (ps ++ [p]) =
  if kind_ok p then update_relay (lat_run ps) (prelay p) (platency p) (pkind p) else lat_run ps.
Proof. unfold lat_run. now rewrite fold_left_app. Qed.

(* Report::update on one family; c: the probe carries an observation x of that family *)
Definition first_seen (c : bool) (g : option sockaddr) (x : sockaddr) : option sockaddr :=
  if c then match g with None => Some x | _ => g end else g.
Definition varies_step (c : bool) (g : option sockaddr) (v : option bool) (x : sockaddr) : option bool :=
  if c then
    match g with
    | Some g0 => if sa_eqb g0 x then match v with Some b => Some b | None => Some false end else Some true
    | None => v
    end
  else v.

Lemma update_eq r p :
  update r p =
  mkRep (obs_cond 0 p || udp_v4 r) (obs_cond 1 p || udp_v6 r)
        (varies_step (obs_cond 0 p) (global_v4 r) (varies_v4 r) (paddr p))
        (varies_step (obs_cond 1 p) (global_v6 r) (varies_v6 r) (paddr p))
        (if kind_ok p then update_relay (relay_latency r) (prelay p) (platency p) (pkind p)
         else relay_latency r)
        (first_seen (obs_cond 0 p) (global_v4 r) (paddr p))
        (first_seen (obs_cond 1 p) (global_v6 r) (paddr p)).
Proof.
  destruct r as [u4 u6 w4 w6 l g4 g6], p as [k u v a].
  unfold update, obs_cond, kind_ok, first_seen, varies_step. cbn.
  change (0 + 1) with 1. change (1 + 1) with 2.
  destruct (N.eqb_spec k 0) as [->|K0]; [reflexivity|].
  destruct (N.eqb_spec k 1) as [->|K1].
  { destruct (fam a =? 0); [|reflexivity].
    destruct g4 as [g|]; [|reflexivity]. destruct (sa_eqb g a); reflexivity. }
  destruct (N.eqb_spec k 2) as [->|K2].
  { destruct (fam a =? 1); [|reflexivity].
    destruct g6 as [g|]; [|reflexivity]. destruct (sa_eqb g a); reflexivity. }
  replace (k <=? 2) with false by lia. reflexivity.
Qed.

Lemma nonempty_snoc_if {A} c (o : list A) x :
  c || nonempty o = nonempty (o ++ if c then [x] else []).
Proof. destruct c; [now destruct o|now rewrite app_nil_r]. Qed.

Lemma hd_error_snoc_if c o x :
  first_seen c (hd_error o) x = hd_error (o ++ if c then [x] else []).
Proof. destruct c; [now destruct o|now rewrite app_nil_r]. Qed.

Lemma vs_snoc_if c o x :
  varies_step c (hd_error o) (vs o) x = vs (o ++ if c then [x] else []).
Proof.
  destruct c; [|now rewrite app_nil_r]. destruct o as [|a [|b t]]; cbn [app vs hd_error varies_step].
  - reflexivity.
  - cbn. now destruct (sa_eqb a x).
  - cbn [forallb]. rewrite forallb_app. cbn [forallb].
    destruct (sa_eqb a x), (sa_eqb a b), (forallb (sa_eqb a) t); reflexivity.
Qed.

Lemma run_spec ps :
  run ps = mkRep (nonempty (observed 0 ps)) (nonempty (observed 1 ps))
                 (varies_spec 0 ps) (varies_spec 1 ps) (lat_run ps)
                 (first_observed 0 ps) (first_observed 1 ps).
Proof.
  induction ps as [|p ps IH] using rev_ind; [reflexivity|].
  rewrite run_snoc, update_eq, IH.
  cbn [udp_v4 udp_v6 varies_v4 varies_v6 relay_latency global_v4 global_v6].
  unfold varies_spec, first_observed. rewrite !observed_snoc, lat_run_snoc.
  rewrite !(nonempty_snoc_if _ _ (paddr p)), !vs_snoc_if, !hd_error_snoc_if. reflexivity.
Qed.

Lemma global_is_first_observed ps :
  global_v4 (run ps) = first_observed 0 ps /\ global_v6 (run ps) = first_observed 1 ps.
Proof. rewrite run_spec. split; reflexivity. Qed.

Lemma varies_is_spec ps :
  varies_v4 (run ps) = varies_spec 0 ps /\ varies_v6 (run ps) = varies_spec 1 ps.
Proof. rewrite run_spec. split; reflexivity. Qed.

Lemma run_latency ps : relay_latency (run ps) = lat_run ps.
Proof. now rewrite run_spec. Qed.

Lemma sa_eqb_iff a b : sa_eqb a b = true <-> a = b.
Proof.
  eapply iff_trans; [apply andb_iff; apply N.eqb_eq|].
  destruct a, b. cbn [fam sid]. split; [now intros [-> ->]|now intros [= -> ->]].
Qed.

Lemma sa_eqb_refl a : sa_eqb a a = true.
Proof. now apply sa_eqb_iff. Qed.

Lemma varies_spec_readable f ps :
  let obs := observed f ps in
  ((length obs < 2)%nat -> varies_spec f ps = None) /\
  ((2 <= length obs)%nat ->
     exists b, varies_spec f ps = Some b /\
       (b = true <-> exists x y, In x obs /\ In y obs /\ x <> y)).
Proof.
  cbv zeta. unfold varies_spec. destruct (observed f ps) as [|a [|b t]]; cbn [length].
  - split; [reflexivity|lia].
  - split; [reflexivity|lia].
  - split; [lia|]. intros _. eexists. split; [reflexivity|].
    rewrite negb_true_iff. split.
    + intros H. destruct (forallb_false _ _ H) as (y & Hy & Hne).
      exists a, y. split; [now left|]. split; [now right|].
      intros ->. now rewrite sa_eqb_refl in Hne.
    + intros (x & y & Hx & Hy & Hne).
      (* read the goal as: not every later observation equals a *)
      apply (eq_false_iff _ _ (forallb_iff _ _ _ (sa_eqb_iff a))). intros E. apply Hne.
      assert (H : forall z, In z (a :: b :: t) -> a = z) by (intros z [<-|Hz]; auto).
      now rewrite <- (H x Hx), <- (H y Hy).
Qed.

Definition wf (l : latencies) : Prop :=
  sortedb (ipv4 l) = true /\ sortedb (ipv6 l) = true /\ sortedb (https l) = true.

(* [tbl k] is the table of probe kind k in the numbering of update_relay (0 https, 1 ipv4, 2 ipv6),
   which is not the order of the record's fields. *)
Definition tbl (k : N) (l : latencies) : table :=
  if k =? 0 then https l else if k =? 1 then ipv4 l else ipv6 l.

Lemma update_relay_wf l u v k : wf l -> wf (update_relay l u v k).
Proof.
  intros (H1 & H2 & H3). unfold update_relay.
  destruct (k =? 0); [|destruct (k =? 1)]; repeat split; cbn; auto using upd_sorted.
Qed.

Lemma update_relay_tbl l u v k j : k <= 2 -> j <= 2 ->
  tbl j (update_relay l u v k) = if j =? k then upd (tbl j l) u v else tbl j l.
Proof.
  intros Hk Hj. assert (Ek : k = 0 \/ k = 1 \/ k = 2) by lia. assert (Ej : j = 0 \/ j = 1 \/ j = 2) by lia.
  destruct Ek as [->|[->| ->]], Ej as [->|[->| ->]]; reflexivity.
Qed.

Lemma wf_tbl l k : wf l -> sortedb (tbl k l) = true.
Proof. intros (H4 & H6 & Hh). unfold tbl. destruct (k =? 0); [|destruct (k =? 1)]; assumption. Qed.

Lemma lat_default_wf : wf lat_default.
Proof. repeat split. Qed.

Lemma lat_run_wf ps : wf (lat_run ps).
Proof.
  unfold lat_run. apply fold_left_inv; [|exact lat_default_wf].
  intros l p Hl. destruct (kind_ok p); auto using update_relay_wf.
Qed.

Lemma lats_of_snoc k u ps p :
  lats_of k u (ps ++ [p]) =
  lats_of k u ps ++ (if (pkind p =? k) && (prelay p =? u) then [platency p] else []).
Proof. apply (map_filter_snoc platency). Qed.

Lemma latency_is_min ps : forall k u, k <= 2 ->
  lookup (tbl k (lat_run ps)) u = list_min (lats_of k u ps).
Proof.
  induction ps as [|p ps IH] using rev_ind; intros k u Hk.
  - unfold tbl. cbn. destruct (k =? 0); [|destruct (k =? 1)]; reflexivity.
  - rewrite lat_run_snoc, lats_of_snoc.
    destruct (N.eqb_spec (pkind p) k) as [<-|N]; cbn [andb].
    + unfold kind_ok. rewrite (proj2 (N.leb_le _ _) Hk), update_relay_tbl, N.eqb_refl by exact Hk.
      rewrite lookup_upd by apply wf_tbl, lat_run_wf.
      destruct (N.eqb_spec (prelay p) u) as [<-|Nu].
      * rewrite N.eqb_refl, list_min_app, IH by exact Hk. apply opt_min_comm.
      * rewrite (proj2 (N.eqb_neq u _) (not_eq_sym Nu)), app_nil_r. apply IH, Hk.
    + rewrite app_nil_r, <- IH by exact Hk. destruct (kind_ok p) eqn:Kp; [|reflexivity].
      rewrite update_relay_tbl by (apply N.leb_le in Kp; assumption).
      rewrite (proj2 (N.eqb_neq k _) (not_eq_sym N)). reflexivity.
Qed.

Definition updf (t : table) (kv : N * N) : table := upd t (fst kv) (snd kv).

Lemma fold_updf_sorted b : forall t, sortedb t = true -> sortedb (fold_left updf b t) = true.
Proof. apply (fold_left_inv updf (fun t => sortedb t = true)). intros t kv. apply upd_sorted. Qed.

Lemma fold_updf_lookup b : forall t k, sortedb t = true -> sortedb b = true ->
  lookup (fold_left updf b t) k = opt_min (lookup t k) (lookup b k).
Proof.
  induction b as [|[k0 v0] b IH]; intros t k Ht Hb; cbn [fold_left lookup].
  - now rewrite opt_min_none_r.
  - apply sortedb_cons in Hb as [Lb Hb]. rewrite IH; [|unfold updf; apply upd_sorted; exact Ht|exact Hb].
    unfold updf. cbn [fst snd]. rewrite lookup_upd by exact Ht.
    destruct (k =? k0) eqn:E; [|reflexivity].
    replace k with k0 by lia. rewrite (lookup_lb b k0 Hb Lb), opt_min_none_r. apply opt_min_comm.
Qed.

Lemma fold_update_relay k b : forall l,
  fold_left (fun acc kv => update_relay acc (fst kv) (snd kv) k) b l =
  if k =? 0 then mkLat (ipv4 l) (ipv6 l) (fold_left updf b (https l))
  else if k =? 1 then mkLat (fold_left updf b (ipv4 l)) (ipv6 l) (https l)
  else mkLat (ipv4 l) (fold_left updf b (ipv6 l)) (https l).
Proof.
  induction b as [|kv b IH]; intros l; cbn [fold_left].
  - destruct l, (k =? 0), (k =? 1); reflexivity.
  - rewrite IH. unfold update_relay. destruct (k =? 0), (k =? 1); reflexivity.
Qed.

Lemma merge_tables a b :
  merge a b = mkLat (fold_left updf (ipv4 b) (ipv4 a)) (fold_left updf (ipv6 b) (ipv6 a))
                    (fold_left updf (https b) (https a)).
Proof.
  unfold merge. rewrite (fold_update_relay 2), (fold_update_relay 1), (fold_update_relay 0).
  reflexivity.
Qed.

Lemma merge_tbl a b k : tbl k (merge a b) = fold_left updf (tbl k b) (tbl k a).
Proof. rewrite merge_tables. unfold tbl. destruct (k =? 0); [|destruct (k =? 1)]; reflexivity. Qed.

Lemma merge_wf a b : wf a -> wf (merge a b).
Proof.
  intros (H1 & H2 & H3). rewrite merge_tables. repeat split; cbn; auto using fold_updf_sorted.
Qed.

Lemma merge_min a b k u : wf a -> wf b ->
  lookup (tbl k (merge a b)) u = opt_min (lookup (tbl k a) u) (lookup (tbl k b) u).
Proof. intros Ha Hb. rewrite merge_tbl. now apply fold_updf_lookup; apply wf_tbl. Qed.

Lemma get_merge a b u : wf a -> wf b -> get (merge a b) u = opt_min (get a u) (get b u).
Proof.
  intros (A4 & A6 & Ah) (B4 & B6 & Bh). rewrite !get_spec, merge_tables. cbn [ipv4 ipv6 https].
  rewrite !fold_updf_lookup by assumption.
  symmetry. etransitivity; [apply opt_min_medial|]. f_equal. apply opt_min_medial.
Qed.

Lemma lat_ext a b : wf a -> wf b ->
  (forall k u, lookup (tbl k a) u = lookup (tbl k b) u) -> a = b.
Proof.
  intros (A4 & A6 & Ah) (B4 & B6 & Bh) H. destruct a, b.
  f_equal; apply sorted_ext; trivial; intros u; [exact (H 1 u)|exact (H 2 u)|exact (H 0 u)].
Qed.

Lemma merge_comm a b : wf a -> wf b -> merge a b = merge b a.
Proof.
  intros Ha Hb. apply lat_ext; auto using merge_wf. intros k u.
  rewrite !merge_min by auto. apply opt_min_comm.
Qed.

Lemma merge_assoc a b c : wf a -> wf b -> wf c -> merge (merge a b) c = merge a (merge b c).
Proof.
  intros Ha Hb Hc. apply lat_ext; auto using merge_wf. intros k u.
  rewrite !merge_min by auto using merge_wf. apply opt_min_assoc.
Qed.

Lemma table_eqb_refl t : table_eqb t t = true.
Proof. apply list_eqb_refl. intros [a b]. cbn. now rewrite !N.eqb_refl. Qed.
Lemma lat_eqb_refl l : lat_eqb l l = true.
Proof. unfold lat_eqb. now rewrite !table_eqb_refl. Qed.

Lemma table_ok_run ps k : k <= 2 -> table_ok k ps (tbl k (lat_run ps)) = true.
Proof.
  intros Hk. unfold table_ok.
  pose proof (wf_tbl _ k (lat_run_wf ps)) as Hs. rewrite Hs. cbn [andb]. apply andb_true_intro. split.
  - apply forallb_forall. intros [u v] Hin. cbn [fst snd].
    apply in_lookup in Hin; [|exact Hs]. rewrite latency_is_min in Hin by exact Hk. rewrite Hin.
    apply opt_N_eqb_refl.
  - apply forallb_forall. intros p Hp. destruct (pkind p =? k) eqn:E; [cbn [negb orb]|reflexivity].
    rewrite latency_is_min by exact Hk.
    destruct (list_min (lats_of k (prelay p) ps)) eqn:El; [reflexivity|].
    apply list_min_none in El. unfold lats_of in El. apply map_eq_nil in El.
    assert (In p (filter (fun q => (pkind q =? k) && (prelay q =? prelay p)) ps)).
    { apply filter_In. split; [exact Hp|]. rewrite E, N.eqb_refl. reflexivity. }
    rewrite El in H. destruct H.
Qed.

Lemma lat_ok_run ps : lat_ok ps (lat_run ps) = true.
Proof.
  unfold lat_ok.
  change (https (lat_run ps)) with (tbl 0 (lat_run ps)).
  change (ipv4 (lat_run ps)) with (tbl 1 (lat_run ps)).
  change (ipv6 (lat_run ps)) with (tbl 2 (lat_run ps)).
  rewrite !table_ok_run by lia. reflexivity.
Qed.

Lemma table_ok_sound k ps m : table_ok k ps m = true ->
  forall u, lookup m u = list_min (lats_of k u ps).
Proof.
  unfold table_ok. intros H u. apply andb_prop in H as [H H3]. apply andb_prop in H as [H1 H2].
  rewrite forallb_forall in H2, H3.
  destruct (lookup m u) as [v|] eqn:E.
  - apply lookup_in in E. specialize (H2 _ E). cbn [fst snd] in H2.
    symmetry. exact (opt_N_eqb_eq _ _ H2).
  - symmetry. apply list_min_none. unfold lats_of.
    destruct (filter _ ps) as [|p l] eqn:F; [reflexivity|].
    assert (Hp : In p (filter (fun p => (pkind p =? k) && (prelay p =? u)) ps)) by (rewrite F; now left).
    apply filter_In in Hp as [Hp Hc]. apply andb_prop in Hc as [C1 C2].
    specialize (H3 p Hp). rewrite C1 in H3. cbn [negb orb] in H3.
    apply N.eqb_eq in C2. rewrite C2, E in H3. discriminate.
Qed.

Lemma table_merge_ok_fold a b : sortedb a = true -> sortedb b = true ->
  table_merge_ok a b (fold_left updf b a) = true.
Proof.
  intros Ha Hb. unfold table_merge_ok. rewrite fold_updf_sorted by exact Ha. cbn [andb].
  apply forallb_forall. intros kv _. rewrite fold_updf_lookup by auto.
  apply opt_N_eqb_refl.
Qed.

Lemma merge_ok_merge a b : wf a -> wf b -> merge_ok a b (merge a b) = true.
Proof.
  intros (A1 & A2 & A3) (B1 & B2 & B3). unfold merge_ok. rewrite merge_tables. cbn [ipv4 ipv6 https].
  now rewrite !table_merge_ok_fold.
Qed.

Lemma model_monitor i : monitor i (model i) = true.
Proof.
  unfold monitor, model. cbn [o_rep o_lat2 o_merge12 o_merge21 o_gets].
  rewrite !run_latency. rewrite (run_spec (hist i)).
  cbn [global_v4 global_v6 varies_v4 varies_v6 udp_v4 udp_v6 relay_latency].
  rewrite !(opt_eqb_refl sa_eqb sa_eqb_refl), !(opt_eqb_refl Bool.eqb Bool.eqb_reflx).
  fold (nonempty (observed 0 (hist i))). fold (nonempty (observed 1 (hist i))). rewrite !Bool.eqb_reflx.
  rewrite !lat_ok_run.
  rewrite merge_ok_merge by apply lat_run_wf.
  rewrite (merge_comm (lat_run (hist2 i)) (lat_run (hist i))) by apply lat_run_wf.
  rewrite lat_eqb_refl. cbn [andb].
  erewrite map_ext by (intros; apply get_spec).
  apply list_eqb_refl, opt_N_eqb_refl.
Qed.

Lemma latency_is_min_run ps k u : k <= 2 ->
  lookup (tbl k (relay_latency (run ps))) u = list_min (lats_of k u ps).
Proof. intros H. rewrite run_latency. exact (latency_is_min ps k u H). Qed.

Lemma tables_wf_run ps : wf (relay_latency (run ps)).
Proof. rewrite run_latency. exact (lat_run_wf ps). Qed.

Definition a1 := mkSa 0 1. Definition a2 := mkSa 0 2. Definition b1 := mkSa 1 1.
Example ex_varies :
  let r := run [mkProbe 1 0 50 a1; mkProbe 1 1 40 b1; mkProbe 1 1 70 a1; mkProbe 1 0 30 a2; mkProbe 1 2 10 a1] in
  (global_v4 r, varies_v4 r, udp_v6 r, lookup (ipv4 (relay_latency r)) 1) = (Some a1, Some true, false, Some 40).
Proof. vm_compute. reflexivity. Qed.
Example ex_same :
  varies_v4 (run [mkProbe 1 0 50 a1; mkProbe 1 1 40 a1]) = Some false.
Proof. vm_compute. reflexivity. Qed.
Example ex_wf : wf (mkLat [(1, 5); (3, 2)] [] [(0, 9)]).
Proof. repeat split. Qed.
