(* C37 — the newest packet per key.  Two facts carry everything.  About lists: folding
   [upsert1] over packets leaves one that none of them is more recent than
   ([stored_of_newest]), so lists with the same members leave packets of the same rank.
   About the model: in every reachable state the store slot of a key is that fold over the
   key's publishes ([Inv]). *)
From V Require Import Lib.Base Lib.Lists Lib.Trace Model.C37.
From Coq Require Import Permutation.
From V Require Import Lib.LiaBool.
Import C37.
Open Scope N_scope.

Lemma bytes_ltb_lex a : forall b, bytes_ltb a b = negb (lex_le b a).
Proof.
  induction a as [|x a IH]; intros [|y b]; cbn [bytes_ltb lex_le]; try reflexivity.
  rewrite IH. destruct (N.ltb_spec x y), (N.ltb_spec y x), (N.eqb_spec y x); try reflexivity; lia.
Qed.

(* [more_recent_than] (timestamp, then payload bytes) is the strict side of the byte order on the
   timestamp put in front of the payload: a total preorder whose ties are [same_rank] *)
Definition rank (p : packet) : bytes := ts p :: payload p.

Lemma not_mrt a b : more_recent_than a b = false <-> lex_le (rank a) (rank b) = true.
Proof.
  unfold more_recent_than. cbn [rank lex_le]. rewrite bytes_ltb_lex.
  destruct (N.eqb_spec (ts a) (ts b)) as [->|]; [rewrite N.ltb_irrefl; apply negb_false_iff|].
  destruct (N.ltb_spec (ts b) (ts a)), (N.ltb_spec (ts a) (ts b)); try lia; split; auto; discriminate.
Qed.

Lemma mrt_irrefl p : more_recent_than p p = false.
Proof. apply not_mrt, lex_le_refl. Qed.

Lemma mrt_asym a b : more_recent_than a b = true -> more_recent_than b a = false.
Proof.
  intros H. apply not_mrt, lex_le_total. destruct (lex_le (rank a) (rank b)) eqn:E; [|reflexivity].
  apply not_mrt in E. congruence.
Qed.

Lemma mrt_neg_trans q m p :
  more_recent_than q m = false -> more_recent_than m p = false -> more_recent_than q p = false.
Proof. intros H1%not_mrt H2%not_mrt. apply not_mrt. exact (lex_le_trans _ _ _ H1 H2). Qed.

Lemma mrt_antisym a b :
  more_recent_than a b = false -> more_recent_than b a = false -> same_rank a b.
Proof.
  intros H1%not_mrt H2%not_mrt. injection (lex_le_antisym _ _ H1 H2) as E1 E2. exact (conj E1 E2).
Qed.

Lemma mrt_same_rank a b : same_rank a b -> more_recent_than a b = false.
Proof. intros [H1 H2]. apply not_mrt. unfold rank. rewrite H1, H2. apply lex_le_refl. Qed.

Lemma packet_eqb_iff a b : packet_eqb a b = true <-> a = b.
Proof.
  unfold packet_eqb. split.
  - intros H. apply andb_prop in H as [H H4]. apply andb_prop in H as [H H3].
    apply andb_prop in H as [H1 H2].
    apply N.eqb_eq in H1, H2, H3. apply bytes_eqb_eq in H4.
    destruct a, b; cbn in H1, H2, H3, H4. now subst.
  - intros ->. now rewrite !N.eqb_refl, bytes_eqb_refl.
Qed.

Lemma forallb_not_mrt m l :
  forallb (fun q => negb (more_recent_than q m)) l = true <->
  (forall q, In q l -> more_recent_than q m = false).
Proof. apply forallb_iff. intros q. apply negb_true_iff. Qed.

Lemma is_max_newest m l : is_max m l = true <-> newest m l.
Proof. apply andb_iff; [apply mem_iff, packet_eqb_iff|apply forallb_not_mrt]. Qed.

(* what a slot holds after the upserts of [l] *)
Definition slot_of (l : list packet) (slot : option packet) : Prop :=
  match slot with
  | None => l = []
  | Some m => newest m l
  end.

Lemma newest_le m l p : newest m l ->
  (more_recent_than m p = false <-> forall q, In q l -> more_recent_than q p = false).
Proof.
  intros [Hin Hmax]. split; [|auto].
  intros H q Hq. eapply mrt_neg_trans; [apply Hmax, Hq|exact H].
Qed.

Lemma slot_upsert l p slot : slot_of l slot -> slot_of (l ++ [p]) (upsert1 slot p).
Proof.
  destruct slot as [e|]; cbn [slot_of upsert1].
  - intros H. pose proof H as [Hin Hmax]. destruct (more_recent_than e p) eqn:E; split.
    + apply in_or_app. now left.
    + intros q Hq. apply in_app_or in Hq as [Hq|[<-|[]]]; [now apply Hmax|now apply mrt_asym].
    + apply in_or_app. right. now left.
    + intros q Hq. apply in_app_or in Hq as [Hq|[<-|[]]]; [|apply mrt_irrefl].
      now apply (newest_le e l).
  - intros ->. split; [now left|]. intros q [<-|[]]. apply mrt_irrefl.
Qed.

Lemma stored_of_snoc l p : stored_of (l ++ [p]) = upsert1 (stored_of l) p.
Proof. unfold stored_of. now rewrite fold_left_app. Qed.

Lemma stored_of_newest l : slot_of l (stored_of l).
Proof.
  induction l as [|p l IH] using rev_ind; [reflexivity|].
  rewrite stored_of_snoc. now apply slot_upsert.
Qed.

(* the rank as the pair that [same_rank] compares; [rank] above is the same two fields as one
   byte string, the form whose order is [lex_le] *)
Definition rank_of (o : option packet) : option (N * bytes) :=
  option_map (fun m => (ts m, payload m)) o.

Lemma stored_of_members l l' :
  (forall q, In q l <-> In q l') -> rank_of (stored_of l) = rank_of (stored_of l').
Proof.
  intros H. pose proof (stored_of_newest l) as S. pose proof (stored_of_newest l') as S'.
  destruct (stored_of l) as [m|], (stored_of l') as [m'|]; cbn [slot_of] in *.
  - destruct S as [Hin Hmax], S' as [Hin' Hmax'].
    destruct (mrt_antisym m m') as [E1 E2]; [apply Hmax', H, Hin|apply Hmax, H, Hin'|].
    cbn. now rewrite E1, E2.
  - subst l'. destruct S as [Hin _]. now apply H in Hin.
  - subst l. destruct S' as [Hin' _]. now apply H in Hin'.
  - reflexivity.
Qed.

Lemma tget_tset t k p k' :
  tget (tset t k p) k' = if N.eqb k k' then Some p else tget t k'.
Proof.
  induction t as [|[k0 q] t IH]; cbn [tset tget]; [reflexivity|].
  destruct (N.eqb_spec k0 k) as [->|Hne]; cbn [tget]; [now destruct (k =? k')|].
  rewrite IH. destruct (N.eqb_spec k0 k') as [->|]; [|reflexivity].
  now rewrite (proj2 (N.eqb_neq k k')) by congruence.
Qed.

Lemma tget_tdel t k k' :
  tget (tdel t k) k' = if N.eqb k k' then None else tget t k'.
Proof.
  induction t as [|[k0 q] t IH]; cbn [tdel tget]; [now destruct (k =? k')|].
  destruct (N.eqb_spec k0 k) as [->|Hne]; cbn [tget]; rewrite IH; [now destruct (k =? k')|].
  destruct (N.eqb_spec k0 k') as [->|]; [|reflexivity].
  now rewrite (proj2 (N.eqb_neq k k')) by congruence.
Qed.

Lemma pubs_snoc k h p : pubs k (h ++ [p]) = if key p =? k then pubs k h ++ [p] else pubs k h.
Proof. unfold pubs. rewrite filter_app. cbn. destruct (key p =? k); [reflexivity|apply app_nil_r]. Qed.

Lemma pubs_key k h q : In q (pubs k h) -> key q = k.
Proof. unfold pubs. rewrite filter_In. intros [_ H]. now apply N.eqb_eq. Qed.

Lemma upsert_store st p :
  forall k, tget (fst (upsert st p)) k =
            if N.eqb (key p) k then upsert1 (tget st (key p)) p else tget st k.
Proof.
  intros k. unfold upsert, upsert1. destruct (tget st (key p)) as [e|] eqn:E.
  - destruct (more_recent_than e p); cbn [fst].
    + destruct (N.eqb_spec (key p) k) as [<-|]; [exact E|reflexivity].
    + apply tget_tset.
  - cbn [fst]. apply tget_tset.
Qed.

Lemma upsert_flag st p :
  snd (upsert st p) = match tget st (key p) with
                      | Some e => negb (more_recent_than e p)
                      | None => true
                      end.
Proof.
  unfold upsert. destruct (tget st (key p)) as [e|]; [|reflexivity].
  now destruct (more_recent_than e p).
Qed.

Lemma insert_store s p : store (fst (insert s p)) = fst (upsert (store s) p).
Proof. unfold insert. destruct (upsert (store s) p) as [st' []]; reflexivity. Qed.

Lemma insert_flag s p : snd (insert s p) = snd (upsert (store s) p).
Proof. unfold insert. destruct (upsert (store s) p) as [st' []]; reflexivity. Qed.

Lemma insert_cache s p k z :
  tget (cache (fst (insert s p))) k = Some z ->
  tget (cache s) k = Some z /\ (snd (insert s p) = true -> key p <> k).
Proof.
  unfold insert. destruct (upsert (store s) p) as [st' []]; cbn [fst snd cache].
  - rewrite tget_tdel. destruct (N.eqb_spec (key p) k); [discriminate|]. auto.
  - intros H. split; [assumption|discriminate].
Qed.

(* the frame of [insert] on the cache and what its store may hold: for Proofs/C36.v, whose
   PUT is this [insert] *)
Lemma insert_cache_other s p k :
  k <> key p -> tget (cache (fst (insert s p))) k = tget (cache s) k.
Proof.
  intros H. unfold insert. destruct (upsert (store s) p) as [st' []]; cbn [fst cache]; [|reflexivity].
  rewrite tget_tdel. destruct (N.eqb_spec (key p) k); [congruence|reflexivity].
Qed.

Lemma insert_store_in s p k q :
  tget (store (fst (insert s p))) k = Some q -> (k = key p /\ q = p) \/ tget (store s) k = Some q.
Proof.
  rewrite insert_store, upsert_store. destruct (N.eqb_spec (key p) k) as [<-|]; [|auto].
  unfold upsert1. destruct (tget (store s) (key p)) as [e|]; [destruct (more_recent_than e p)|];
    intros [= <-]; auto.
Qed.

Lemma update_iff_became_stored s p :
  snd (insert s p) = true <-> tget (store (fst (insert s p))) (key p) = Some p.
Proof.
  rewrite insert_flag, insert_store, upsert_store, upsert_flag, N.eqb_refl. unfold upsert1.
  destruct (tget (store s) (key p)) as [e|]; [|tauto].
  destruct (more_recent_than e p) eqn:E; cbn [negb]; split; try discriminate; auto.
  intros [= ->]. now rewrite mrt_irrefl in E.
Qed.

Lemma publish_frames_other_keys s p k :
  k <> key p -> tget (store (fst (insert s p))) k = tget (store s) k.
Proof.
  intros H. rewrite insert_store, upsert_store.
  destruct (N.eqb_spec (key p) k); [congruence|reflexivity].
Qed.

(* [hist]: the packets published so far *)
Record Inv (s : state) (hist : list packet) : Prop := {
  inv_store : forall k, tget (store s) k = stored_of (pubs k hist);
  inv_cache : forall k z, tget (cache s) k = Some z -> tget (store s) k = Some z
}.

Lemma inv_init : Inv init [].
Proof. split; cbn; [reflexivity|discriminate]. Qed.

Lemma inv_slot s hist k : Inv s hist -> slot_of (pubs k hist) (tget (store s) k).
Proof. intros I. rewrite (inv_store _ _ I). apply stored_of_newest. Qed.

Lemma inv_stored_key s hist k m : Inv s hist -> tget (store s) k = Some m -> key m = k.
Proof.
  intros I E. pose proof (inv_slot s hist k I) as H. rewrite E in H. destruct H as [H _].
  now apply pubs_key in H.
Qed.

Lemma inv_insert s hist p : Inv s hist -> Inv (fst (insert s p)) (hist ++ [p]).
Proof.
  intros I. split.
  - intros k. rewrite insert_store, upsert_store, !(inv_store _ _ I), pubs_snoc.
    destruct (N.eqb_spec (key p) k) as [<-|]; [now rewrite stored_of_snoc|reflexivity].
  - intros k z Hc. apply insert_cache in Hc as [Hc Hk].
    pose proof (inv_cache _ _ I _ _ Hc) as Hs.
    rewrite insert_store, upsert_store.
    destruct (N.eqb_spec (key p) k) as [<-|Hne]; [|assumption].
    (* same key: the cache entry survived, so the publish was not an update *)
    rewrite insert_flag, upsert_flag, Hs in Hk. unfold upsert1. rewrite Hs.
    destruct (more_recent_than z p); [reflexivity|]. now exfalso; apply Hk.
Qed.

(* a cached packet is the stored one, so re-inserting the stored packet is never
   skipped for being older *)
Lemma cache_insert_stored s hist k p :
  Inv s hist -> tget (store s) k = Some p -> cache_insert (cache s) p = tset (cache s) k p.
Proof.
  intros I Es. unfold cache_insert. rewrite (inv_stored_key _ _ _ _ I Es).
  destruct (tget (cache s) k) as [z|] eqn:Ec; [|reflexivity].
  apply (inv_cache _ _ I) in Ec. rewrite Es in Ec. injection Ec as <-. now rewrite N.ltb_irrefl.
Qed.

Lemma resolve_spec c s hist k :
  Inv s hist ->
  snd (resolve c s k) = match tget (store s) k with
                        | Some m => content c (payload m)
                        | None => None
                        end
  /\ Inv (fst (resolve c s k)) hist.
Proof.
  intros I. unfold resolve. destruct (cache_resolve c (cache s) k) as [r|] eqn:Ec; cbn [fst snd].
  - split; [|exact I]. unfold cache_resolve in Ec.
    destruct (tget (cache s) k) as [z|] eqn:Ez; [|discriminate].
    now rewrite (inv_cache _ _ I _ _ Ez).
  - (* miss, or a cached zone without such a record: the stored packet is cached and asked *)
    destruct (tget (store s) k) as [p|] eqn:Es; cbn [fst snd]; [|now split].
    rewrite (cache_insert_stored _ _ _ _ I Es), (inv_stored_key _ _ _ _ I Es).
    unfold cache_resolve. rewrite tget_tset, N.eqb_refl. split; [reflexivity|].
    split; cbn [store cache]; [apply (inv_store _ _ I)|].
    intros k' z'. rewrite tget_tset. destruct (N.eqb_spec k k') as [<-|]; [|apply (inv_cache _ _ I)].
    intros [= <-]. exact Es.
Qed.

Lemma step_publish c s p : step c s (Publish p) = (fst (insert s p), OPub (snd (insert s p))).
Proof. cbn [step]. now destruct (insert s p). Qed.

Lemma step_resolve c s k : step c s (Resolve k) = (fst (resolve c s k), ORes (snd (resolve c s k))).
Proof. cbn [step]. now destruct (resolve c s k). Qed.

Lemma step_spec c s hist o : Inv s hist ->
  Inv (fst (step c s o)) (hist_after hist o) /\ obs_spec c hist o (snd (step c s o)).
Proof.
  intros I. destruct o as [p|k|k]; cbn [hist_after].
  - rewrite step_publish. split; [now apply inv_insert|].
    cbn [snd obs_spec]. rewrite insert_flag, upsert_flag.
    pose proof (inv_slot s hist (key p) I) as H.
    destruct (tget (store s) (key p)) as [e|]; cbn [slot_of] in H.
    + rewrite negb_true_iff. now apply newest_le.
    + rewrite H. split; auto. intros _ q [].
  - split; [exact I|exact (inv_slot s hist k I)].
  - rewrite step_resolve. destruct (resolve_spec c s hist k I) as [E I']. split; [exact I'|].
    cbn [snd obs_spec]. rewrite E. pose proof (inv_slot s hist k I) as H.
    destruct (tget (store s) k) as [m|]; [right; exists m|left]; auto.
Qed.

Definition run_from_cons c := mrun_cons (step c) (run_from c) (fun _ _ _ => eq_refl).

Lemma run_spec c : forall ops s hist, Inv s hist ->
  spec_from c hist ops (snd (run_from c s ops)) /\
  Inv (fst (run_from c s ops)) (hist ++ published ops).
Proof.
  induction ops as [|o ops IH]; intros s hist I.
  - rewrite app_nil_r. split; [exact Logic.I|exact I].
  - destruct (step_spec c s hist o I) as [I' H]. destruct (IH _ _ I') as [Hs Hi].
    rewrite run_from_cons. split; [split; assumption|].
    replace (hist ++ published (o :: ops)) with (hist_after hist o ++ published ops); [exact Hi|].
    destruct o; cbn [hist_after published]; now rewrite <- ?app_assoc.
Qed.

Lemma obs_ok_spec c hist o ob : obs_ok c hist o ob = true <-> obs_spec c hist o ob.
Proof.
  destruct o as [p|k|k], ob as [b|[m|]|r]; cbn [obs_ok obs_spec]; try (split; [discriminate|intros []]).
  - apply eqb_iff, forallb_not_mrt.
  - apply is_max_newest.
  - apply nil_iff.
  - destruct (pubs k hist) as [|x l] eqn:E.
    + destruct r as [n|].
      * split; [discriminate|]. intros [[_ H]|(m & [[] _] & _)]. discriminate.
      * split; [intros _; left; auto|reflexivity].
    + eapply iff_trans.
      { apply existsb_iff. intros m. apply andb_iff; [apply is_max_newest|apply opt_N_eqb_iff]. }
      (* the spec leaves [In m l] to [newest] and has the empty case beside it *)
      split.
      * intros (m & _ & H). right. exists m. exact H.
      * intros [[H _]|(m & Hm & Hr)]; [discriminate|]. exists m. split; [apply Hm|]. split; assumption.
Qed.

Lemma monitor_from_spec c : forall ops hist obl,
  monitor_from c hist ops obl = true <-> spec_from c hist ops obl.
Proof.
  induction ops as [|o ops IH]; intros hist [|ob obl]; cbn [monitor_from spec_from];
    try (split; [discriminate|tauto]); [tauto|].
  (* [monitor_from] spells [hist_after hist o] out; [IH] meets it by conversion *)
  apply andb_iff; [apply obs_ok_spec|apply IH].
Qed.

Lemma monitor_spec c ops obl :
  monitor (c, ops) (Ok obl) = true <-> spec_from c [] ops obl.
Proof. apply monitor_from_spec. Qed.

Lemma model_monitor i : monitor i (model i) = true.
Proof.
  destruct i as [c ops]. unfold model. apply monitor_spec, run_spec, inv_init.
Qed.

Definition final (c : ctab) (ops : list op) : state := fst (run_from c init ops).

Lemma inv_final c ops : Inv (final c ops) (published ops).
Proof. exact (proj2 (run_spec c ops init [] inv_init)). Qed.

Lemma stored_is_fold c ops k :
  tget (store (final c ops)) k = stored_of (pubs k (published ops)).
Proof. apply inv_final. Qed.

Lemma stored_is_max c ops k :
  match tget (store (final c ops)) k with
  | None => pubs k (published ops) = []
  | Some m => newest m (pubs k (published ops))
  end.
Proof. exact (inv_slot _ _ k (inv_final c ops)). Qed.

(* Two publish orders leave packets of the same rank, and packets of one rank can still differ
   in the signature; they are the same packet once the signature is a function of key,
   timestamp and payload, as an ed25519 signature is. *)
Definition sig_deterministic (l : list packet) : Prop :=
  forall a b, In a l -> In b l -> key a = key b -> same_rank a b -> sig a = sig b.

(* by [stored_of_members], also for any two histories with the same set of packets for k *)
Lemma stored_order_independent c c' ops ops' k :
  Permutation (pubs k (published ops)) (pubs k (published ops')) ->
  rank_of (tget (store (final c ops)) k) = rank_of (tget (store (final c' ops')) k).
Proof.
  intros P. rewrite !stored_is_fold. apply stored_of_members.
  intros q. split; apply Permutation_in; [|apply Permutation_sym]; exact P.
Qed.

Lemma stored_order_independent_exact c c' ops ops' k :
  sig_deterministic (published ops) ->
  Permutation (pubs k (published ops)) (pubs k (published ops')) ->
  tget (store (final c ops)) k = tget (store (final c' ops')) k.
Proof.
  intros D P. pose proof (stored_order_independent c c' ops ops' k P) as R.
  pose proof (stored_is_max c ops k) as H. pose proof (stored_is_max c' ops' k) as H'.
  destruct (tget (store (final c ops)) k) as [m|], (tget (store (final c' ops')) k) as [m'|];
    try discriminate R; [|reflexivity].
  injection R as R1 R2. destruct H as [Hin _], H' as [Hin' _].
  apply (Permutation_in _ (Permutation_sym P)) in Hin'.
  assert (K : key m = key m') by (apply pubs_key in Hin, Hin'; congruence).
  apply filter_In in Hin as [Hin _], Hin' as [Hin' _].
  pose proof (D _ _ Hin Hin' K (conj R1 R2)) as S. destruct m, m'; cbn in *; congruence.
Qed.

Lemma served_is_stored c ops k :
  snd (resolve c (final c ops) k) =
  match tget (store (final c ops)) k with
  | Some m => content c (payload m)
  | None => None
  end.
Proof. exact (proj1 (resolve_spec c _ _ k (inv_final c ops))). Qed.

Definition pA := mkP 0 7 0 [1;2].
Definition pB := mkP 0 7 1 [1;3].
Definition pC := mkP 0 5 2 [9].
Definition pD := mkP 1 1 3 [].

Example ex_tie_payload : more_recent_than pB pA = true /\ more_recent_than pA pB = false.
Proof. split; vm_compute; reflexivity. Qed.

Example ex_prefix_smaller : bytes_ltb [1;2] [1;2;0] = true /\ bytes_ltb [1;2;0] [1;2] = false.
Proof. split; vm_compute; reflexivity. Qed.

Example ex_orders :
  tget (store (final [] [Publish pA; Publish pD; Publish pB; Publish pC])) 0 = Some pB /\
  tget (store (final [] [Publish pC; Publish pB; Get 0; Publish pA])) 0 = Some pB /\
  tget (store (final [] [Publish pB; Publish pA; Publish pC])) 1 = None.
Proof. repeat split; vm_compute; reflexivity. Qed.

Example ex_republish_reports_update :
  model ([], [Publish pA; Publish pA; Publish pC; Publish pB]) = Ok [OPub true; OPub true; OPub false; OPub true].
Proof. vm_compute. reflexivity. Qed.

Example ex_cache_paths :
  model ([([1;3], 5)], [Publish pA; Resolve 0; Publish pB; Resolve 0; Resolve 0; Publish pC; Resolve 0])
  = Ok [OPub true; ORes None; OPub true; ORes (Some 5); ORes (Some 5); OPub false; ORes (Some 5)].
Proof. vm_compute. reflexivity. Qed.

(* the monitor can fail: a server that kept the older packet is rejected *)
Example ex_monitor_rejects :
  monitor ([], [Publish pC; Publish pA; Get 0]) (Ok [OPub true; OPub true; OGet (Some pC)]) = false /\
  monitor ([], [Publish pC; Publish pA; Get 0]) (Ok [OPub true; OPub false; OGet (Some pA)]) = false.
Proof. split; vm_compute; reflexivity. Qed.
