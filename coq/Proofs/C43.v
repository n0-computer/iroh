(* C43: the lock-and-handle model of RelayMap refines a plain map (functions N -> option cfg)
   and never blocks.  [lookup] is the abstraction function: a strictly sorted association list
   represents the function its lookups compute ([repr]) and is determined by it; under [Rel]
   corresponding locks hold a list and the function it represents. *)
From V Require Import Lib.Base Lib.Lists Lib.Trace Model.C43.
Import C43.
Open Scope N_scope.

Lemma cfg_eqb_eq a b : cfg_eqb a b = true <-> a = b.
Proof.
  unfold cfg_eqb. eapply iff_trans.
  { apply andb_iff; [apply andb_iff; [apply N.eqb_eq|apply opt_N_eqb_iff]|apply opt_N_eqb_iff]. }
  destruct a, b; cbn. split; [intros [[-> ->] ->]; reflexivity|intros [= -> -> ->]; auto].
Qed.

Lemma ocfg_eqb_eq a b : ocfg_eqb a b = true <-> a = b.
Proof. apply opt_eqb_iff, cfg_eqb_eq. Qed.

Lemma pair_eqb_eq x y : pair_eqb x y = true <-> x = y.
Proof.
  unfold pair_eqb. eapply iff_trans; [apply andb_iff; [apply N.eqb_eq|apply cfg_eqb_eq]|].
  destruct x, y; cbn. split; [intros [-> ->]; reflexivity | intros [= -> ->]; auto].
Qed.

Lemma map_eqb_eq a b : map_eqb a b = true <-> a = b.
Proof. apply list_eqb_iff, pair_eqb_eq. Qed.

Definition keys (m : amap) : list N := map fst m.

Fixpoint sorted (m : amap) : Prop :=
  match m with
  | [] => True
  | (k, _) :: r => (forall x, In x (keys r) -> k < x) /\ sorted r
  end.

Lemma keys_forall (P : N -> Prop) m :
  (forall kv, In kv m -> P (fst kv)) <-> (forall x, In x (keys m) -> P x).
Proof.
  unfold keys. split.
  - intros H x (kv & <- & Hin)%in_map_iff. exact (H kv Hin).
  - intros H kv Hin. exact (H _ (in_map fst m kv Hin)).
Qed.

Lemma sortedb_spec m : sortedb m = true <-> sorted m.
Proof.
  induction m as [|[k v] r IH]; cbn [sortedb sorted]; [apply true_iff|].
  apply andb_iff; [|exact IH]. eapply iff_trans; [apply forallb_iff; intros kv; apply N.ltb_lt|].
  apply (keys_forall (fun x => k < x)).
Qed.

Lemma lookup_keys m k : In k (keys m) <-> lookup m k <> None.
Proof.
  induction m as [|[k' v] r IH]; cbn; [tauto|].
  destruct (N.eqb_spec k k') as [->|Hne]; [split; [discriminate|auto]|].
  rewrite <- IH. split; [intros [E|H]; [congruence|exact H]|auto].
Qed.

Lemma lookup_notin m k : ~ In k (keys m) -> lookup m k = None.
Proof.
  rewrite lookup_keys. destruct (lookup m k); [intros H; exfalso; apply H; discriminate|reflexivity].
Qed.

Lemma lookup_below k r : (forall x, In x (keys r) -> k < x) -> lookup r k = None.
Proof. intros H. apply lookup_notin. intros Hin. apply H in Hin. lia. Qed.

Lemma lookup_ins m k v x : lookup (ins m k v) x = if x =? k then Some v else lookup m x.
Proof.
  induction m as [|[k' v'] r IH]; cbn [ins lookup]; [reflexivity|].
  destruct (N.ltb_spec k k'); [reflexivity|].
  destruct (N.eqb_spec k k') as [->|Hne]; cbn [lookup].
  - destruct (x =? k'); reflexivity.
  - rewrite IH. destruct (N.eqb_spec x k') as [->|]; [|reflexivity].
    now rewrite (proj2 (N.eqb_neq k' k)) by congruence.
Qed.

Lemma keys_ins m k v x : In x (keys (ins m k v)) <-> x = k \/ In x (keys m).
Proof.
  split; intros H.
  - apply lookup_keys in H. rewrite lookup_ins in H.
    destruct (N.eqb_spec x k); [now left|right; now apply lookup_keys].
  - apply lookup_keys. rewrite lookup_ins.
    destruct (N.eqb_spec x k); [discriminate|]. destruct H; [contradiction|now apply lookup_keys].
Qed.

Lemma sorted_ins m k v : sorted m -> sorted (ins m k v).
Proof.
  induction m as [|[k' v'] r IH]; cbn [ins sorted].
  - intros _. split; [intros x []|exact I].
  - intros [H1 H2]. destruct (N.ltb_spec k k'); [|destruct (N.eqb_spec k k') as [->|Hne]]; cbn [sorted].
    + split; [|split; assumption].
      intros x [<-|Hx]; [assumption|]. apply H1 in Hx. lia.
    + split; assumption.
    + split; [|auto]. intros x Hx. apply keys_ins in Hx as [->|Hx]; [lia|auto].
Qed.

Lemma keys_del m k x : In x (keys (del m k)) -> In x (keys m).
Proof.
  induction m as [|[k' v'] r IH]; cbn [del]; [tauto|].
  destruct (k =? k'); cbn; [tauto|]. intros [->|H]; [tauto|right; apply IH, H].
Qed.

Lemma sorted_del m k : sorted m -> sorted (del m k).
Proof.
  induction m as [|[k' v'] r IH]; cbn [del sorted]; [tauto|]. intros [H1 H2].
  destruct (k =? k'); [assumption|]. cbn [sorted]. split; [|auto].
  intros x Hx. apply H1. eapply keys_del, Hx.
Qed.

Lemma lookup_del m k x : sorted m -> lookup (del m k) x = if x =? k then None else lookup m x.
Proof.
  induction m as [|[k' v'] r IH]; cbn [del lookup sorted].
  - intros _. destruct (x =? k); reflexivity.
  - intros [H1 H2]. destruct (N.eqb_spec k k') as [->|Hne]; cbn [lookup].
    + destruct (N.eqb_spec x k') as [E|]; [rewrite E; now apply lookup_below|reflexivity].
    + rewrite IH by assumption. destruct (N.eqb_spec x k') as [->|]; [|reflexivity].
      now rewrite (proj2 (N.eqb_neq k' k)) by congruence.
Qed.

Lemma sorted_ext a b : sorted a -> sorted (ext a b).
Proof. unfold ext. apply fold_left_inv. intros m kv. apply sorted_ins. Qed.

Lemma keys_ext_iff b : forall a x, In x (keys (ext a b)) <-> In x (keys a) \/ In x (keys b).
Proof.
  unfold ext. induction b as [|[k v] b IH]; intros a x; cbn; [tauto|].
  eapply iff_trans; [apply IH|].
  eapply iff_trans; [apply or_iff_compat_r, keys_ins|].
  split; [intros [[->|H]|H]|intros [H|[<-|H]]]; auto.
Qed.

Lemma keys_ext b : forall a x, In x (keys (ext a b)) -> In x (keys a) \/ In x (keys b).
Proof. apply keys_ext_iff. Qed.

(* later entries of [b] win in [ext]; the first wins in [lookup]: the two agree
   because a sorted [b] has no key twice *)
Lemma lookup_ext b : forall a x, sorted b ->
  lookup (ext a b) x = match lookup b x with Some c => Some c | None => lookup a x end.
Proof.
  unfold ext. induction b as [|[k v] b IH]; intros a x Hb; cbn [fold_left lookup]; [reflexivity|].
  destruct Hb as [H1 H2]. rewrite IH by assumption. cbn [fst snd]. rewrite lookup_ins.
  destruct (N.eqb_spec x k) as [->|]; [|reflexivity]. now rewrite lookup_below.
Qed.

Lemma keys_set_tok t m : keys (set_tok t m) = keys m.
Proof. unfold keys, set_tok. rewrite map_map. apply map_ext. reflexivity. Qed.

Lemma sorted_set_tok t m : sorted m -> sorted (set_tok t m).
Proof.
  induction m as [|[k v] r IH]; cbn; [tauto|]. intros [H1 H2]. split; [|auto].
  fold (set_tok t r). rewrite keys_set_tok. exact H1.
Qed.

Lemma lookup_set_tok t m x : lookup (set_tok t m) x = option_map (with_tok t) (lookup m x).
Proof.
  induction m as [|[k v] r IH]; cbn; [reflexivity|]. destruct (x =? k); [reflexivity|exact IH].
Qed.

Lemma NoDup_keys m : sorted m -> NoDup (keys m).
Proof.
  induction m as [|[k v] r IH]; cbn; [constructor|]. intros [H1 H2]. constructor; [|auto].
  intros Hin%H1. lia.
Qed.

Lemma lookup_head k v r : lookup ((k, v) :: r) k = Some v.
Proof. cbn. now rewrite N.eqb_refl. Qed.

Lemma head_le k v r x : (forall y, In y (keys r) -> k < y) -> lookup ((k, v) :: r) x <> None -> k <= x.
Proof.
  intros Hr. cbn. destruct (N.eqb_spec x k) as [->|_]; [lia|].
  intros H. apply N.lt_le_incl, Hr, lookup_keys, H.
Qed.

(* each head key is found in the other list, so neither head is below the other *)
Lemma sorted_lookup_eq a : forall b, sorted a -> sorted b ->
  (forall k, lookup a k = lookup b k) -> a = b.
Proof.
  induction a as [|[k1 v1] a IH]; intros [|[k2 v2] b] Ha Hb H.
  - reflexivity.
  - specialize (H k2). now rewrite lookup_head in H.
  - specialize (H k1). now rewrite lookup_head in H.
  - destruct Ha as [Ha1 Ha2], Hb as [Hb1 Hb2].
    assert (k1 = k2) as <-.
    { apply N.le_antisymm.
      - apply (head_le k1 v1 a k2 Ha1). rewrite H, lookup_head. discriminate.
      - apply (head_le k2 v2 b k1 Hb1). rewrite <- H, lookup_head. discriminate. }
    pose proof (H k1) as Hv. rewrite !lookup_head in Hv. injection Hv as <-.
    f_equal. apply IH; try assumption.
    intros k. destruct (N.eqb_spec k k1) as [->|Hne]; [now rewrite !lookup_below|].
    specialize (H k). cbn in H. now rewrite (proj2 (N.eqb_neq k k1)) in H.
Qed.

(* [obs_rel] at [OSnap] and [snaps_rel] write this conjunction out; the proofs pass from one
   spelling to the other by conversion *)
Definition repr (m : amap) (f : fmap) : Prop := sorted m /\ forall k, lookup m k = f k.

Lemma repr_nil : repr [] fempty.
Proof. split; [exact I|reflexivity]. Qed.

Lemma repr_eq m f g : repr m f -> (forall k, f k = g k) -> repr m g.
Proof. intros [Hs Hl] E. split; [exact Hs|]. intros k. now rewrite Hl. Qed.

Lemma repr_ins m f k v : repr m f -> repr (ins m k v) (fins f k v).
Proof.
  intros [Hs Hl]. split; [now apply sorted_ins|].
  intros x. rewrite lookup_ins. unfold fins. now rewrite Hl.
Qed.

Lemma repr_del m f k : repr m f -> repr (del m k) (fdel f k).
Proof.
  intros [Hs Hl]. split; [now apply sorted_del|].
  intros x. rewrite lookup_del by assumption. unfold fdel. now rewrite Hl.
Qed.

Lemma repr_ext a f b g : repr a f -> repr b g -> repr (ext a b) (fext f g).
Proof.
  intros [Ha Hf] [Hb Hg]. split; [now apply sorted_ext|].
  intros x. rewrite lookup_ext by assumption. unfold fext. now rewrite Hf, Hg.
Qed.

Lemma repr_set_tok t m f : repr m f -> repr (set_tok t m) (ftok t f).
Proof.
  intros [Hs Hl]. split; [now apply sorted_set_tok|].
  intros x. rewrite lookup_set_tok. unfold ftok. now rewrite Hl.
Qed.

Lemma repr_from_list es : repr (from_list es) (ffrom es).
Proof.
  unfold from_list, ffrom. apply fold_left_rel; [|exact repr_nil]. intros m f c. apply repr_ins.
Qed.

Lemma repr_keys m f k : repr m f -> (In k (keys m) <-> f k <> None).
Proof. intros [_ Hl]. rewrite <- Hl. apply lookup_keys. Qed.

Lemma repr_map_eqb a f b g : repr a f -> repr b g ->
  (map_eqb a b = true <-> forall k, f k = g k).
Proof.
  intros [Ha Hf] [Hb Hg]. rewrite map_eqb_eq. split.
  - intros -> k. now rewrite <- Hf, Hg.
  - intros H. apply sorted_lookup_eq; try assumption. intros k. now rewrite Hf, Hg.
Qed.

Lemma repr_is_nil m f : repr m f -> (is_nil m = true <-> forall k, f k = None).
Proof.
  intros [_ Hl]. destruct m as [|[k v] r]; cbn [is_nil].
  - split; [|reflexivity]. intros _ k. now rewrite <- Hl.
  - split; [discriminate|]. intros H. specialize (H k). now rewrite <- Hl, lookup_head in H.
Qed.

Lemma nth_snoc {A} (L : list A) x d n :
  nth n (L ++ [x]) d = if Nat.eqb n (length L) then x else nth n L d.
Proof.
  destruct (Nat.eqb_spec n (length L)) as [->|Hne].
  - now rewrite nth_middle.
  - destruct (Nat.ltb_spec n (length L)).
    + now apply app_nth1.
    + rewrite !nth_overflow; [reflexivity|lia|rewrite app_length; cbn; lia].
Qed.

Lemma forallb_combine_map {A B} (P : A * B -> bool) (f : A -> B) l :
  forallb P (combine l (map f l)) = forallb (fun x => P (x, f x)) l.
Proof. induction l as [|a l IH]; cbn; [reflexivity|]. now rewrite IH. Qed.

(* The property in Prop: what the monitor's [bobs], [bcheck] and [snap_ok] test with their
   quantifiers bounded by a key universe, here over all keys ([bobs_spec], [bcheck_spec],
   [snap_ok_spec]). *)
Definition obs_rel (a : astate) (o : op) (v : obs) : Prop :=
  match o, v with
  | ONew _, VUnit | OClone _, VUnit | OExtend _ _, VUnit | OToken _ _, VUnit => True
  | OInsert h u _, VOpt c | ORemove h u, VOpt c | OGet h u, VOpt c => c = acont a (alk a h) u
  | OContains h u, VBool b => b = is_some (acont a (alk a h) u)
  | OEq h1 h2, VBool b => b = true <-> forall k, acont a (alk a h1) k = acont a (alk a h2) k
  | OLen h, VNum n =>
      exists ks, NoDup ks /\ (forall k, In k ks <-> acont a (alk a h) k <> None) /\ n = len ks
  | OIsEmpty h, VBool b => b = true <-> forall k, acont a (alk a h) k = None
  | OSnap h, VSnap m => sorted m /\ forall k, lookup m k = acont a (alk a h) k
  | _, _ => False
  end.

Fixpoint refines (a : astate) (ops : list op) (vs : list obs) : Prop :=
  match ops, vs with
  | [], [] => True
  | o :: r, v :: vs' => obs_rel a o v /\ refines (astep a o) r vs'
  | _, _ => False
  end.

Definition snaps_rel (a : astate) (ss : list amap) : Prop :=
  Forall2 (fun l m => sorted m /\ forall k, lookup m k = acont a l k) (ahandles a) ss.

(* every operation of the history returned, with the plain map's answers *)
Definition spec (i : input) (o : output) : Prop :=
  ~ In VBlocked (fst o) /\ ~ In VPanic (fst o) /\
  refines ainit i (fst o) /\ snaps_rel (arun ainit i) (snd o).

Lemma obs_rel_not_bad a o v : obs_rel a o v -> bad v = false.
Proof. destruct v; try reflexivity; destruct o; intros []. Qed.

Lemma refines_shape ops : forall a vs,
  refines a ops vs -> negb (existsb bad vs) = true /\ length vs = length ops.
Proof.
  induction ops as [|o ops IH]; intros a [|v vs]; cbn [refines existsb length]; try tauto.
  intros [Ho Hr]. apply IH in Hr as [Hb ->]. rewrite (obs_rel_not_bad a o v Ho). split; [exact Hb|reflexivity].
Qed.

Lemma not_bad_iff vs : negb (existsb bad vs) = true <-> ~ In VBlocked vs /\ ~ In VPanic vs.
Proof.
  eapply iff_trans; [apply negb_iff, existsb_iff; intros v; apply iff_refl|]. split.
  - intros H. split; intros Hin; apply H; eexists; (split; [exact Hin|reflexivity]).
  - intros [H1 H2] (v & Hin & Hb). destruct v; try discriminate Hb; contradiction.
Qed.

(* in no state does an operation of the fixed code acquire a lock it already holds: neither
   the certain self-deadlock (write involved) nor the re-entrant read that deadlocks once
   another thread queues a writer *)
Lemma no_reentrant_lemma : forall s o, check [] (acqs true s o) = Clean.
Proof.
  intros s o.
  assert (H2 : forall l1 l2 m1 m2, Nat.eqb l1 l2 = false -> check [] [(l1, m1); (l2, m2)] = Clean).
  { intros l1 l2 m1 m2 E. unfold check, conflict. cbn [existsb fst snd andb orb]. now rewrite E. }
  destruct o; cbn [acqs andb]; try reflexivity;
    (destruct (Nat.eqb (lk s h1) (lk s h2)) eqn:E; [reflexivity|apply H2, E]).
Qed.

Lemma step_exec s o : step true s o = (Some (fst (exec true s o)), snd (exec true s o)).
Proof. unfold step. rewrite no_reentrant_lemma. destruct (exec true s o). reflexivity. Qed.

(* beyond the last lock both sides read the empty map, so the third clause
   needs no bound on [l] *)
Definition Rel (s : state) (a : astate) : Prop :=
  handles s = ahandles a /\ length (locks s) = length (alocks a) /\
  forall l, repr (cont s l) (acont a l).

(* [setl] and [asetl] are the model's [set_nth], the same fixpoint as [Lists.set_nth], whose lemmas
   apply by conversion *)
Lemma cont_setl s l m l' :
  cont (setl s l m) l' = if Nat.eqb l' l && Nat.ltb l (length (locks s)) then m else cont s l'.
Proof. apply nth_set_nth. Qed.

Lemma acont_asetl a l f l' :
  acont (asetl a l f) l' = if Nat.eqb l' l && Nat.ltb l (length (alocks a)) then f else acont a l'.
Proof. apply nth_set_nth. Qed.

Lemma Rel_init : Rel init ainit.
Proof. split; [reflexivity|]. split; [reflexivity|]. intros [|[|l]]; exact repr_nil. Qed.

Lemma Rel_setl s a l m f : Rel s a -> repr m f -> Rel (setl s l m) (asetl a l f).
Proof.
  intros (Hh & Hl & Hc) Hm. split; [exact Hh|]. split; [cbn; now rewrite !set_nth_length|].
  intros l'. rewrite cont_setl, acont_asetl, Hl.
  destruct (Nat.eqb l' l && Nat.ltb l (length (alocks a))); [exact Hm|apply Hc].
Qed.

(* writing back what a lock already holds changes nothing: the early return of
   [extend] on handles sharing one Arc *)
Lemma Rel_asetl_same s a l f : Rel s a -> (forall k, acont a l k = f k) -> Rel s (asetl a l f).
Proof.
  intros (Hh & Hl & Hc) Hf. split; [exact Hh|]. split; [cbn; now rewrite set_nth_length|].
  intros l'. rewrite acont_asetl.
  destruct (Nat.eqb_spec l' l) as [->|]; cbn [andb]; [|apply Hc].
  destruct (Nat.ltb l (length (alocks a))); [|apply Hc]. eapply repr_eq; [apply Hc|exact Hf].
Qed.

Lemma step_refines s a o : Rel s a ->
  Rel (fst (exec true s o)) (astep a o) /\ obs_rel a o (snd (exec true s o)).
Proof.
  intros HR. pose proof HR as (Hh & Hl & Hc).
  assert (Hlk : forall h, lk s h = alk a h) by (intros h; unfold lk, alk; now rewrite Hh).
  (* one case per operation, in the order of [op] *)
  destruct o; cbn [exec astep fst snd obs_rel andb]; rewrite ?Hlk.
  - split; [|exact I]. split; [cbn; now rewrite Hh, Hl|]. split; [cbn; rewrite !app_length, Hl; reflexivity|].
    intros l. unfold cont, acont. cbn [locks alocks]. rewrite !nth_snoc, Hl.
    destruct (Nat.eqb l (length (alocks a))); [apply repr_from_list|apply Hc].
  - split; [|exact I]. split; [cbn; now rewrite Hh|]. split; [exact Hl|exact Hc].
  - split; [apply Rel_setl, repr_ins; auto|apply Hc].
  - split; [apply Rel_setl, repr_del; auto|apply Hc].
  - destruct (Nat.eqb_spec (alk a h1) (alk a h2)) as [<-|_]; cbn [fst]; (split; [|exact I]).
    + (* same Arc: early return; the plain map extended by itself is itself *)
      apply Rel_asetl_same; [exact HR|].
      intros k. unfold fext. now destruct (acont a (alk a h1) k).
    + apply Rel_setl, repr_ext; auto.
  - split; [apply Rel_setl, repr_set_tok; auto|exact I].
  - destruct (Nat.eqb_spec (alk a h1) (alk a h2)) as [<-|_]; cbn [fst snd]; (split; [exact HR|]).
    + tauto.
    + apply repr_map_eqb; auto.
  - split; [exact HR|apply Hc].
  - split; [exact HR|]. f_equal. apply Hc.
  - split; [exact HR|]. exists (keys (cont s (alk a h))).
    split; [apply NoDup_keys, Hc|]. split; [|unfold len, keys; now rewrite map_length].
    intros k. apply repr_keys, Hc.
  - split; [exact HR|]. apply repr_is_nil, Hc.
  - split; [exact HR|apply Hc].
Qed.

Lemma run_refines ops : forall s a, Rel s a ->
  exists vs s', run true s ops = (vs, Some s') /\ Rel s' (arun a ops) /\ refines a ops vs.
Proof.
  induction ops as [|o ops IH]; intros s a HR; cbn [run arun refines].
  - exists [], s. auto.
  - rewrite step_exec.
    destruct (step_refines s a o HR) as (HR' & Hobs).
    destruct (IH _ _ HR') as (vs & s' & Hrun & HR'' & Href).
    rewrite Hrun. exists (snd (exec true s o) :: vs), s'. cbn [refines]. auto.
Qed.

Lemma snaps_of s a : Rel s a -> snaps_rel a (snaps (Some s)).
Proof.
  intros (Hh & _ & Hc). unfold snaps_rel, snaps. rewrite <- Hh. clear Hh.
  induction (handles s) as [|l hs IH]; cbn; constructor; [apply Hc|exact IH].
Qed.

Lemma refines_map_lemma (ops : list op) :
  exists vs ss, model ops = (vs, ss) /\ refines ainit ops vs /\ snaps_rel (arun ainit ops) ss.
Proof.
  destruct (run_refines ops init ainit Rel_init) as (vs & s' & Hrun & HR & Href).
  exists vs, (snaps (Some s')). unfold model, model_of. rewrite Hrun. split; [reflexivity|].
  split; [assumption|]. now apply snaps_of.
Qed.

Lemma model_spec (ops : list op) : spec ops (model ops).
Proof.
  destruct (refines_map_lemma ops) as (vs & ss & -> & Href & Hs).
  destruct (refines_shape _ _ _ Href) as [Hb _]. apply not_bad_iff in Hb as [H1 H2].
  repeat split; assumption.
Qed.

Lemma never_blocked_lemma (ops : list op) :
  ~ In VBlocked (fst (model ops)) /\ ~ In VPanic (fst (model ops)) /\
  length (fst (model ops)) = length ops.
Proof.
  destruct (model_spec ops) as (H1 & H2 & Href & _).
  split; [assumption|]. split; [assumption|]. eapply refines_shape, Href.
Qed.

(* [f] is undefined outside the key universe [U]: a quantifier over [U] then speaks of all keys *)
Definition off (U : list N) (f : fmap) : Prop := forall x, ~ In x U -> f x = None.
Definition asupp (U : list N) (a : astate) : Prop := forall l, off U (acont a l).

Lemma forallb_off U (p : N -> bool) (P : N -> Prop) :
  (forall k, p k = true <-> P k) -> (forall k, ~ In k U -> P k) ->
  (forallb p U = true <-> forall k, P k).
Proof.
  intros Hp Hoff. eapply iff_trans; [apply forallb_iff, Hp|]. split.
  - intros H k. destruct (in_dec N.eq_dec k U); auto.
  - intros H k _. apply H.
Qed.

Lemma off_in U f k : off U f -> f k <> None -> In k U.
Proof. intros Hf H. destruct (in_dec N.eq_dec k U) as [|Hn]; [assumption|]. now apply Hf in Hn. Qed.

Lemma asupp_init U : asupp U ainit.
Proof. intros [|[|l]] x _; reflexivity. Qed.

Lemma asupp_asetl U a l f : asupp U a -> off U f -> asupp U (asetl a l f).
Proof.
  intros Ha Hf l'. rewrite acont_asetl.
  destruct (Nat.eqb l' l && Nat.ltb l (length (alocks a))); [exact Hf|apply Ha].
Qed.

Lemma off_fins U f k v : off U f -> In k U -> off U (fins f k v).
Proof. intros Hf Hk x Hx. unfold fins. destruct (N.eqb_spec x k) as [->|]; [contradiction|auto]. Qed.

Lemma off_ffrom U es : incl (map curl es) U -> off U (ffrom es).
Proof.
  unfold ffrom. assert (H : off U fempty) by (intros x _; reflexivity). revert H.
  generalize fempty. induction es as [|c es IH]; intros f Hf Hi; cbn [fold_left]; [exact Hf|].
  apply IH; [apply off_fins; [exact Hf|apply Hi; now left]|intros y Hy; apply Hi; now right].
Qed.

Lemma asupp_astep U a o : asupp U a -> incl (opkeys o) U -> asupp U (astep a o).
Proof.
  intros Ha Hi. destruct o; cbn [astep]; try assumption.
  - intros l. unfold acont. cbn [alocks]. rewrite nth_snoc.
    destruct (Nat.eqb l (length (alocks a))); [now apply off_ffrom|apply Ha].
  - apply asupp_asetl, off_fins; auto. apply Hi. now left.
  - apply asupp_asetl; [assumption|]. intros x Hx. unfold fdel. rewrite (Ha _ x Hx). now destruct (x =? u).
  - apply asupp_asetl; [assumption|]. intros x Hx. unfold fext. now rewrite !(Ha _ x Hx).
  - apply asupp_asetl; [assumption|]. intros x Hx. unfold ftok. now rewrite (Ha _ x Hx).
Qed.

(* the test of one snapshot, which [bobs] at [OSnap] and [snap_ok] each write out *)
Lemma snapcheck_spec U (f : fmap) m : off U f ->
  (sortedb m && forallb (fun kv => existsb (N.eqb (fst kv)) U) m
     && forallb (fun k => ocfg_eqb (lookup m k) (f k)) U = true
   <-> repr m f).
Proof.
  intros Hf. unfold repr. eapply iff_trans.
  { apply andb_iff; [apply andb_iff; [apply sortedb_spec|]|apply forallb_iff; intros k; apply ocfg_eqb_eq].
    eapply iff_trans; [apply forallb_iff; intros kv; apply existsb_eqb_in|].
    apply (keys_forall (fun x => In x U)). }
  split.
  - (* outside [U] both sides are undefined *)
    intros [[Hs Hi] Hl]. split; [exact Hs|]. intros k.
    destruct (in_dec N.eq_dec k U) as [Hin|Hn]; [exact (Hl k Hin)|].
    rewrite (Hf k Hn). apply lookup_notin. intros Hk. exact (Hn (Hi k Hk)).
  - intros [Hs Hl]. split; [split; [exact Hs|]|intros k _; apply Hl].
    intros k Hin. apply (off_in U f k Hf). rewrite <- Hl. now apply lookup_keys.
Qed.

Lemma In_nodupN l x : In x (nodupN l) <-> In x l.
Proof.
  induction l as [|a l IH]; cbn; [reflexivity|].
  destruct (existsb (N.eqb a) l) eqn:E; cbn; rewrite IH; [|reflexivity].
  apply existsb_eqb_in in E. split; [auto|]. intros [<-|H]; assumption.
Qed.

Lemma NoDup_nodupN l : NoDup (nodupN l).
Proof.
  induction l as [|a l IH]; cbn; [constructor|].
  destruct (existsb (N.eqb a) l) eqn:E; [assumption|].
  constructor; [|assumption]. rewrite In_nodupN. now apply existsb_eqb_notin.
Qed.

Lemma bobs_spec U a o v : asupp U a -> (bobs U a o v = true <-> obs_rel a o v).
Proof.
  intros Ha. destruct o, v; cbn [bobs obs_rel]; try exact false_iff;
    try exact true_iff; try apply ocfg_eqb_eq.
  - apply eqb_iff, forallb_off; [intros k; apply ocfg_eqb_eq|].
    intros k Hn. now rewrite !(Ha _ k Hn).
  - apply Bool.eqb_true_iff.
  - (* OLen: both sides list the defined keys without repetition *)
    rewrite N.eqb_eq.
    set (F := filter (fun k => is_some (acont a (alk a h) k)) (nodupN U)).
    assert (HF1 : NoDup F) by (apply NoDup_filter, NoDup_nodupN).
    assert (HF2 : forall k, In k F <-> acont a (alk a h) k <> None).
    { assert (Hs : forall o : option cfg, is_some o = true <-> o <> None)
        by (intros []; cbn; split; congruence).
      intros k. eapply iff_trans; [apply filter_In|]. split.
      - intros [_ H]. apply Hs, H.
      - intros H. split; [apply In_nodupN, (off_in U _ k (Ha _) H)|apply Hs, H]. }
    split; [intros ->; exists F; auto|].
    intros (ks & Hnd & Hks & ->). unfold len. f_equal.
    apply Nat.le_antisymm; apply NoDup_incl_length; try assumption; intros x Hx.
    + apply HF2, Hks, Hx.
    + apply Hks, HF2, Hx.
  - apply eqb_iff, forallb_off; [|intros k Hn; apply (Ha _ k Hn)].
    intros k. destruct (acont a (alk a h) k); cbn; split; congruence.
  - apply snapcheck_spec, Ha.
Qed.

Lemma bcheck_spec U ops : forall a, asupp U a -> incl (flat_map opkeys ops) U ->
  asupp U (arun a ops) /\ forall vs, bcheck U a ops vs = true <-> refines a ops vs.
Proof.
  induction ops as [|o ops IH]; intros a Ha Hi; cbn [arun].
  - split; [exact Ha|]. intros [|v vs]; cbn; [tauto|split; [discriminate|contradiction]].
  - cbn [flat_map] in Hi. apply incl_app_inv in Hi as [Hi1 Hi2].
    destruct (IH _ (asupp_astep U a o Ha Hi1) Hi2) as [Hs Hb]. split; [exact Hs|].
    intros [|v vs]; cbn [bcheck refines]; [split; [discriminate|contradiction]|].
    apply andb_iff; [apply bobs_spec, Ha|apply Hb].
Qed.

Lemma snap_ok_spec U a ss : asupp U a -> (snap_ok U a ss = true <-> snaps_rel a ss).
Proof.
  intros Ha. apply forallb_combine_Forall2. intros l m. apply snapcheck_spec, Ha.
Qed.

Lemma monitor_spec (i : input) (o : output) : monitor i o = true <-> spec i o.
Proof.
  destruct (bcheck_spec (universe i) i ainit (asupp_init _) (incl_refl _)) as [Ha Hb].
  pose proof (snap_ok_spec (universe i) (arun ainit i) (snd o) Ha) as Hs.
  unfold monitor, spec. apply andb_assoc_iff. refine (iff_trans _ (and_assoc _ _ _)).
  apply andb_iff; [apply not_bad_iff|]. apply andb_iff; [apply Hb|exact Hs].
Qed.

Lemma model_monitor (i : input) : monitor i (model i) = true.
Proof. apply monitor_spec, model_spec. Qed.

(* the code before the fix: extend through a clone never returns; == through a
   clone re-enters its read lock *)
Lemma unfixed_blocks :
  model_of false [OClone 0; OExtend 0 1] = ([VUnit; VBlocked], []).
Proof. vm_compute. reflexivity. Qed.

Lemma unfixed_reentrant :
  check [] (acqs false init (OEq 0 0)) = Reentrant.
Proof. vm_compute. reflexivity. Qed.

Lemma unfixed_refuted_lemma : exists ops, In VBlocked (fst (model_of false ops)).
Proof. exists [OClone 0; OExtend 0 1]. rewrite unfixed_blocks. cbn. auto. Qed.

Example ex_alias :
  model [OInsert 0 1 (mkCfg 1 (Some 7842) None); OClone 0; OExtend 1 0; OEq 0 1; OToken 1 2; OSnap 0]
  = ([VOpt None; VUnit; VUnit; VBool true; VUnit; VSnap [(1, mkCfg 1 (Some 7842) (Some 2))]],
     [[(1, mkCfg 1 (Some 7842) (Some 2))]; [(1, mkCfg 1 (Some 7842) (Some 2))]]).
Proof. vm_compute. reflexivity. Qed.

Example ex_extend_overwrites :
  fst (model [ONew [mkCfg 1 None None; mkCfg 2 None None]; ONew [mkCfg 2 (Some 1) None; mkCfg 3 None None];
              OExtend 1 2; OSnap 1; OLen 1; OEq 1 2])
  = [VUnit; VUnit; VUnit;
     VSnap [(1, mkCfg 1 None None); (2, mkCfg 2 (Some 1) None); (3, mkCfg 3 None None)]; VNum 3; VBool false].
Proof. vm_compute. reflexivity. Qed.

Example ex_monitor_rejects_blocked : monitor [OExtend 0 0] ([VBlocked], []) = false.
Proof. vm_compute. reflexivity. Qed.

Example ex_monitor_rejects_wrong_map :
  monitor [OInsert 0 1 (mkCfg 1 None None); OGet 0 1] ([VOpt None; VOpt None], [[(1, mkCfg 1 None None)]]) = false.
Proof. vm_compute. reflexivity. Qed.
