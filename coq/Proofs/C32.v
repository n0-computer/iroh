(* C32 — what the SignedPacket constructors accept, and that every constructed packet can be
   inspected without a panic. *)
From V Require Import Lib.Base Lib.Lists Lib.Dec Gen.Consts Model.C32.
From V Require Import Lib.LiaBool.
Import C32.
Open Scope N_scope.

Lemma signable_injective ts v ts' v' :
  signable ts v = signable ts' v' -> ts = ts' /\ v = v'.
Proof.
  (* 101 is 'e' after the decimal timestamp, [49; 58; 118] is "1:v", 58 is ':' after the decimal length *)
  unfold signable. intros E. apply app_inv_head in E.
  apply (dec_field_inj _ _ 101 101) in E as [-> E]; [|reflexivity..].
  apply (app_inv_head [49; 58; 118]) in E.
  now apply (dec_field_inj _ _ 58 58) in E as [_ E].
Qed.

Lemma signable_length ts v : len (signable ts v) = 11 + len (dec ts) + len (dec (len v)) + len v.
Proof.
  unfold signable, len. rewrite !app_length. cbn [str_bytes length]. lia.
Qed.

Lemma key_of_eq bs : key_of bs = firstn 32 bs.
Proof. reflexivity. Qed.
Lemma sig_of_eq bs : sig_of bs = firstn 64 (skipn 32 bs).
Proof. reflexivity. Qed.

(* offsets behind the 32-byte key: 64 = 96 - 32, 72 = 104 - 32 *)
Lemma ts_of_eq bs : ts_of bs = be_u64 (firstn 8 (skipn 64 (skipn 32 bs))).
Proof. unfold ts_of, slice. change (N.to_nat 96) with (32 + 64)%nat. now rewrite skipn_add. Qed.
Lemma payload_of_eq bs : payload_of bs = skipn 72 (skipn 32 bs).
Proof. unfold payload_of. change 104%nat with (32 + 72)%nat. now rewrite skipn_add. Qed.

Lemma be_bytes_length n v : length (be_bytes n v) = n.
Proof. revert v; induction n as [|n IH]; intros v; cbn [be_bytes]; [reflexivity|]. rewrite app_length, IH. cbn. lia. Qed.

Section Proofs.
  Variable is_point : bytes -> bool.
  Variable verify : bytes -> bytes -> bytes -> bool.
  Variable dns_ok : bytes -> bool.

  Notation from_bytes := (from_bytes is_point verify dns_ok).
  Notation from_relay_payload := (from_relay_payload is_point verify dns_ok).
  Notation from_bytes_unchecked := (from_bytes_unchecked is_point dns_ok).
  Notation from_parts_unchecked := (from_parts_unchecked is_point dns_ok).
  Notation public_key := (public_key is_point).
  Notation observe := (observe is_point).

  Lemma from_bytes_unchecked_sat bs :
    sat False (fun p => p = bs /\ PKARR_HEADER_SIZE <= len bs /\ len bs <= PKARR_MAX_SIGNED_PACKET_SIZE /\
                        is_point (key_of bs) = true /\ dns_ok (payload_of bs) = true)
        (from_bytes_unchecked bs).
  Proof.
    unfold C32.from_bytes_unchecked, from_bytes_unchecked_with, FIXED. cbn [andb].
    destruct (len bs <? PKARR_HEADER_SIZE) eqn:E1; [exact I|].
    destruct (PKARR_MAX_SIGNED_PACKET_SIZE <? len bs) eqn:E2; [exact I|].
    destruct (is_point (key_of bs)); [|exact I].
    destruct (dns_ok (payload_of bs)); [|exact I].
    apply N.ltb_ge in E1, E2. cbn. auto.
  Qed.

  Lemma from_bytes_sat bs :
    sat False (fun p => p = bs /\ PKARR_HEADER_SIZE <= len bs /\ len bs <= PKARR_MAX_SIGNED_PACKET_SIZE /\
                        is_point (key_of bs) = true /\
                        verify (key_of bs) (signable (ts_of bs) (payload_of bs)) (sig_of bs) = true /\
                        dns_ok (payload_of bs) = true)
        (from_bytes bs).
  Proof.
    unfold C32.from_bytes.
    destruct (len bs <? PKARR_HEADER_SIZE) eqn:E1; [exact I|].
    destruct (PKARR_MAX_SIGNED_PACKET_SIZE <? len bs) eqn:E2; [exact I|].
    destruct (is_point (key_of bs)); [|exact I].
    destruct (verify (key_of bs) (signable (ts_of bs) (payload_of bs)) (sig_of bs)); [|exact I].
    destruct (dns_ok (payload_of bs)); [|exact I].
    apply N.ltb_ge in E1, E2. cbn. auto 6.
  Qed.

  Lemma from_bytes_spec bs p :
    from_bytes bs = Ok p <->
    (p = bs /\ PKARR_HEADER_SIZE <= len bs /\ len bs <= PKARR_MAX_SIGNED_PACKET_SIZE /\
     is_point (key_of bs) = true /\
     verify (key_of bs) (signable (ts_of bs) (payload_of bs)) (sig_of bs) = true /\
     dns_ok (payload_of bs) = true).
  Proof.
    split; [exact (sat_ok _ _ _ p (from_bytes_sat bs))|].
    intros (-> & H1%N.ltb_ge & H2%N.ltb_ge & K & V & D). unfold C32.from_bytes. now rewrite H1, H2, K, V, D.
  Qed.

  Lemma from_bytes_sound bs p :
    from_bytes bs = Ok p ->
    p = bs /\ is_point (key_of bs) = true /\
    verify (key_of bs) (signable (ts_of bs) (payload_of bs)) (sig_of bs) = true /\
    dns_ok (payload_of bs) = true.
  Proof. intros (-> & _ & _ & H)%from_bytes_spec. split; [reflexivity|exact H]. Qed.

  Lemma from_bytes_rejects bs :
    is_point (key_of bs) = false \/
    verify (key_of bs) (signable (ts_of bs) (payload_of bs)) (sig_of bs) = false \/
    dns_ok (payload_of bs) = false ->
    exists e, from_bytes bs = Err e.
  Proof.
    intros H. destruct (from_bytes bs) as [p|e|] eqn:E.
    - apply from_bytes_sound in E as (_ & H1 & H2 & H3). destruct H as [H|[H|H]]; congruence.
    - eauto.
    - destruct (sat_total _ _ (from_bytes_sat bs) E).
  Qed.

  Lemma relay_payload_uses_given_key key payload p :
    length key = 32%nat ->
    from_relay_payload key payload = Ok p ->
    p = key ++ payload /\ key_of p = key /\ is_point key = true /\
    verify key (signable (be_u64 (firstn 8 (skipn 64 payload))) (skipn 72 payload)) (firstn 64 payload) = true /\
    dns_ok (skipn 72 payload) = true.
  Proof.
    intros L H. apply from_bytes_sound in H as (-> & H).
    rewrite sig_of_eq, ts_of_eq, payload_of_eq, key_of_eq,
      (skipn_app_length key payload 32 L), (firstn_app_length key payload 32 L) in H.
    split; [reflexivity|]. split; [exact (firstn_app_length key payload 32 L)|exact H].
  Qed.

  (* what makes a packet inspectable: every slice the accessors take exists, the key is a point *)
  Definition inv (p : bytes) : Prop := PKARR_HEADER_SIZE <= len p /\ is_point (key_of p) = true.

  Lemma inv_public_key p : inv p -> public_key p = Ok (key_of p).
  Proof.
    intros [L K]. unfold PKARR_HEADER_SIZE in L. unfold C32.public_key. rewrite K.
    replace (len p <? 32) with false by lia. reflexivity.
  Qed.

  Lemma inv_total p : inv p -> obs_total (observe p) = true.
  Proof.
    intros I. pose proof (inv_public_key p I) as K. destruct I as [L _]. unfold PKARR_HEADER_SIZE in L.
    unfold C32.observe, obs_total. cbn [ob_key ob_sig ob_ts ob_payload ob_relay ob_txt ob_display ob_debug].
    unfold display, debug, txt_records, signature, timestamp, encoded_packet, to_relay_payload.
    rewrite K.
    replace (len p <? 32) with false by lia.
    replace (len p <? 96) with false by lia.
    replace (len p <? 104) with false by lia.
    reflexivity.
  Qed.

  Lemma from_bytes_unchecked_inv bs p : from_bytes_unchecked bs = Ok p -> inv p.
  Proof. intros (-> & H1 & _ & H2 & _)%(sat_ok _ _ _ _ (from_bytes_unchecked_sat bs)). now split. Qed.

  Lemma from_bytes_inv bs p : from_bytes bs = Ok p -> inv p.
  Proof. intros (-> & H1 & _ & H2 & _)%from_bytes_spec. now split. Qed.

  (* the values obtainable from the public constructors *)
  Inductive constructed : bytes -> Prop :=
  | c_from_bytes bs p : from_bytes bs = Ok p -> constructed p
  | c_relay key payload p : from_relay_payload key payload = Ok p -> constructed p
  | c_unchecked bs p : from_bytes_unchecked bs = Ok p -> constructed p
  | c_parts key sig ts payload p : from_parts_unchecked key sig ts payload = Ok p -> constructed p
  (* from_txt_strings: the key of a SecretKey (a point), a 64-byte signature, the clock, the built payload *)
  | c_signed key sig ts payload :
      is_point key = true -> length key = 32%nat -> length sig = 64%nat ->
      constructed (key ++ sig ++ be8 ts ++ payload).

  Lemma signed_inv key sig ts payload :
    is_point key = true -> length key = 32%nat -> length sig = 64%nat ->
    inv (key ++ sig ++ be8 ts ++ payload).
  Proof.
    intros Hk Lk Ls. split.
    - unfold PKARR_HEADER_SIZE, len. rewrite !app_length, Lk, Ls. unfold be8. rewrite be_bytes_length. lia.
    - now rewrite key_of_eq, (firstn_app_length key _ 32 Lk).
  Qed.

  Lemma constructed_inv p : constructed p -> inv p.
  Proof.
    intros [bs p' H | key payload p' H | bs p' H | key sig ts payload p' H | key sig ts payload Hk Lk Ls].
    1-2: exact (from_bytes_inv _ _ H).
    1-2: exact (from_bytes_unchecked_inv _ _ H).
    now apply signed_inv.
  Qed.

  Lemma from_txt_strings_constructed key sig ts build p :
    is_point key = true -> length key = 32%nat -> length sig = 64%nat ->
    from_txt_strings key sig ts build = Ok p -> constructed p.
  Proof.
    intros Hk Lk Ls. unfold from_txt_strings. destruct build as [pl|]; [|discriminate].
    destruct (PKARR_MAX_DNS_PACKET_SIZE <? len pl); [discriminate|]. intros [= <-]. now apply c_signed.
  Qed.

  Lemma accessors_total p :
    constructed p ->
    public_key p = Ok (key_of p) /\ obs_total (observe p) = true.
  Proof. intros H. apply constructed_inv in H. split; [now apply inv_public_key | now apply inv_total]. Qed.
End Proofs.

(* iroh before the fix: an unchecked constructor returns a packet whose public_key() panics *)
Lemma unchecked_old_refuted :
  exists (is_point dns_ok : bytes -> bool) bs p,
    from_bytes_unchecked_with is_point dns_ok false bs = Ok p /\
    public_key is_point p = Panic /\ display is_point p = Panic /\ debug is_point p = Panic.
Proof.
  exists (fun _ => false), (fun _ => true), (repeat 2 104), (repeat 2 104).
  vm_compute. auto.
Qed.

(* non-vacuity: with primitives that accept, a packet is accepted and inspectable *)
Example accept_example :
  let bs := repeat 7 116 in
  from_bytes (fun _ => true) (fun _ _ _ => true) (fun _ => true) bs = Ok bs /\
  obs_total (observe (fun _ => true) bs) = true.
Proof. vm_compute. auto. Qed.

Example signable_example :
  signable 999 [1; 2; 3] = str_bytes "3:seqi999e1:v3:" ++ [1; 2; 3].
Proof. vm_compute. reflexivity. Qed.

Lemma map_res_ok {A B} (f : A -> B) r b : map_res f r = Ok b -> exists a, r = Ok a /\ b = f a.
Proof. destruct r; cbn; try discriminate. intros [= <-]. eauto. Qed.

Lemma accepted_from_bytes i bs :
  accepted_ok i (key_of bs) bs
    (map_res (c_observe i) (from_bytes (c_is_point i) (c_verify i) (c_dns_ok i) bs)) = true.
Proof.
  destruct (from_bytes (c_is_point i) (c_verify i) (c_dns_ok i) bs) as [p|e|] eqn:E; cbn [map_res accepted_ok].
  - pose proof (from_bytes_inv _ _ _ _ _ E) as I.
    apply from_bytes_sound in E as (-> & H1 & H2 & H3).
    unfold c_observe. cbn [ob_bytes ob_key C32.observe].
    rewrite bytes_eqb_refl, H1, H2, H3, (inv_public_key _ _ I), (inv_total _ _ I). cbn. now rewrite bytes_eqb_refl.
  - reflexivity.
  - destruct (sat_total _ _ (from_bytes_sat _ _ _ bs) E).
Qed.

Lemma inspect_unchecked i bs :
  inspect_ok (map_res (c_observe i) (from_bytes_unchecked (c_is_point i) (c_dns_ok i) bs)) = true.
Proof.
  destruct (from_bytes_unchecked (c_is_point i) (c_dns_ok i) bs) as [p|e|] eqn:E; cbn [map_res inspect_ok].
  - apply from_bytes_unchecked_inv in E. now apply inv_total.
  - reflexivity.
  - destruct (sat_total _ _ (from_bytes_unchecked_sat _ _ bs) E).
Qed.

Lemma model_monitor i : monitor i (model i) = true.
Proof.
  unfold monitor, model. cbv zeta. cbn [r_from_bytes r_unchecked r_parts r_relay r_relay2 r_txt].
  rewrite accepted_from_bytes, inspect_unchecked.
  unfold from_parts_unchecked, from_parts_unchecked_with.
  change (from_bytes_unchecked_with (c_is_point i) (c_dns_ok i) FIXED) with (from_bytes_unchecked (c_is_point i) (c_dns_ok i)).
  rewrite inspect_unchecked. cbn [andb].
  rewrite <- andb_assoc. apply andb_true_intro. split; [|apply andb_true_intro; split].
  - destruct ((32 <=? len (all_bytes i)) && c_is_point i (key_of (all_bytes i))); [|reflexivity].
    unfold from_relay_payload. rewrite key_of_eq, firstn_skipn. rewrite <- key_of_eq. apply accepted_from_bytes.
  - destruct (32 <=? len (all_bytes i)); [|reflexivity].
    destruct (N.eqb_spec (len (in_key2 i)) 32) as [L|]; cbn [negb orb]; [|reflexivity].
    unfold from_relay_payload.
    pose proof (accepted_from_bytes i (in_key2 i ++ skipn 32 (all_bytes i))) as A.
    rewrite key_of_eq, firstn_app_length in A by (unfold len in L; lia). exact A.
  - destruct (txt_wf i) eqn:W; cbn [negb orb]; [|now destruct (in_txt i)].
    unfold txt_wf in W. destruct (in_txt i) as [t|]; [|discriminate].
    apply andb_prop in W as [[Hk Lk]%andb_prop Ls].
    unfold model_txt, from_txt_strings. destruct (t_build t) as [pl|]; [|reflexivity].
    destruct (PKARR_MAX_DNS_PACKET_SIZE <? len pl); [reflexivity|].
    apply inv_total, signed_inv; [exact Hk|unfold len in *; lia..].
Qed.

Definition accepted_prop (i : input) (key bs : bytes) (r : res obs) : Prop :=
  match r with
  | Ok o => ob_bytes o = bs /\ c_is_point i key = true /\
            c_verify i key (signable (ts_of bs) (payload_of bs)) (sig_of bs) = true /\
            c_dns_ok i (payload_of bs) = true /\ ob_key o = Ok key /\ obs_total o = true
  | Err _ => True
  | Panic => False
  end.
Definition inspect_prop (r : res obs) : Prop :=
  match r with Ok o => obs_total o = true | Err _ => True | Panic => False end.

Lemma accepted_ok_spec i key bs r : accepted_ok i key bs r = true <-> accepted_prop i key bs r.
Proof.
  destruct r as [o|e|]; cbn [accepted_ok accepted_prop]; [|apply true_iff|apply false_iff].
  repeat apply andb_assoc_iff.
  apply andb_iff; [apply bytes_eqb_iff|].
  apply andb_iff; [apply iff_refl|].
  apply andb_iff; [apply iff_refl|].
  apply andb_iff; [apply iff_refl|].
  apply andb_iff; [apply res_eqb_iff, bytes_eqb_iff|apply iff_refl].
Qed.

Lemma inspect_ok_spec r : inspect_ok r = true <-> inspect_prop r.
Proof. destruct r; cbn [inspect_ok inspect_prop]; [apply iff_refl|apply true_iff|apply false_iff]. Qed.

Lemma monitor_spec i o :
  len (in_key2 i) = 32 ->
  (monitor i o = true <->
   accepted_prop i (key_of (all_bytes i)) (all_bytes i) (r_from_bytes o) /\
   inspect_prop (r_unchecked o) /\ inspect_prop (r_parts o) /\
   (forall r, r_relay o = Some r -> accepted_prop i (key_of (all_bytes i)) (all_bytes i) r) /\
   (forall r, r_relay2 o = Some r ->
      accepted_prop i (in_key2 i) (in_key2 i ++ skipn 32 (all_bytes i)) r) /\
   (forall r, r_txt o = Some r -> txt_wf i = true -> inspect_prop r)).
Proof.
  intros L. unfold monitor. cbv zeta. rewrite L, N.eqb_refl. cbn [negb orb].
  repeat apply andb_assoc_iff.
  apply andb_iff; [apply accepted_ok_spec|].
  apply andb_iff; [apply inspect_ok_spec|].
  apply andb_iff; [apply inspect_ok_spec|].
  apply andb_iff; [apply some_iff; intros r; apply accepted_ok_spec|].
  apply andb_iff; [apply some_iff; intros r; apply accepted_ok_spec|].
  apply some_iff. intros r. apply nimpb_iff; [apply iff_refl|apply inspect_ok_spec].
Qed.
