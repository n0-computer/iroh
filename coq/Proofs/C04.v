(* C04 — proofs: every datagram frame the relay writes to a connection stems from
   exactly one accepted send addressed to that connection's id while it was the
   active one, carries the authenticated sender and the unchanged datagram, and
   frames keep the order of acceptance.  Over all traces of Model/C04.v. *)
From V Require Import Lib.Base Lib.Lists Gen.Consts.
From V Require Import Model.C04.
From V Require Import Model.C05.
From V Require Import Proofs.C05.
From Coq Require Import Sorted.
Import C04.
Open Scope N_scope.

Lemma running_phase' c : is_running c = true -> c_phase c = Running.
Proof. apply running_phase. Qed.

Inductive sublist {A} : list A -> list A -> Prop :=
| sl_nil l : sublist [] l
| sl_skip x l1 l2 : sublist l1 l2 -> sublist l1 (x :: l2)
| sl_take x l1 l2 : sublist l1 l2 -> sublist (x :: l1) (x :: l2).

Lemma sublist_refl {A} (l : list A) : sublist l l.
Proof. induction l; [apply sl_nil|now apply sl_take]. Qed.

Lemma sublist_app_r {A} (l L L' : list A) : sublist l L -> sublist l (L ++ L').
Proof. induction 1; cbn; [apply sl_nil|now apply sl_skip|now apply sl_take]. Qed.

Lemma sublist_app_skip {A} (l L0 L : list A) : sublist l L -> sublist l (L0 ++ L).
Proof. intros H. induction L0; cbn; [exact H|now apply sl_skip]. Qed.

Lemma sublist_app2 {A} (a a' b b' : list A) : sublist a a' -> sublist b b' -> sublist (a ++ b) (a' ++ b').
Proof. induction 1; cbn; intros Hb; [now apply sublist_app_skip|apply sl_skip; auto|apply sl_take; auto]. Qed.

Lemma sublist_snoc {A} (l L : list A) x : sublist l L -> sublist (l ++ [x]) (L ++ [x]).
Proof. intros H. apply sublist_app2; [exact H|apply sublist_refl]. Qed.

Lemma sublist_trans {A} (a b c : list A) : sublist a b -> sublist b c -> sublist a c.
Proof.
  intros Hab Hbc. revert a Hab. induction Hbc as [l|x l1 l2 H IH|x l1 l2 H IH]; intros a Hab.
  - inversion Hab. constructor.
  - apply sl_skip. auto.
  - inversion Hab as [|y a1 a2 Ha|y a1 a2 Ha]; subst.
    + constructor.
    + apply sl_skip. auto.
    + apply sl_take. auto.
Qed.

Lemma sublist_remove_mid {A} (a : list A) x b : sublist (a ++ b) (a ++ x :: b).
Proof. apply sublist_app2; [apply sublist_refl|apply sl_skip, sublist_refl]. Qed.

Lemma sublist_tail {A} (x : A) l L : sublist (x :: l) L -> sublist l L.
Proof. apply sublist_trans, sl_skip, sublist_refl. Qed.

Lemma sublist_app_l {A} (l1 l2 L : list A) : sublist (l1 ++ l2) L -> sublist l1 L.
Proof. apply sublist_trans, sublist_app_r, sublist_refl. Qed.

Lemma sublist_filter {A} (f : A -> bool) l L : sublist l L -> sublist (filter f l) (filter f L).
Proof.
  induction 1; cbn; [apply sl_nil| |].
  - destruct (f x); [now apply sl_skip|assumption].
  - destruct (f x); [now apply sl_take|assumption].
Qed.

Lemma sublist_map {A B} (f : A -> B) l L : sublist l L -> sublist (map f l) (map f L).
Proof. induction 1; cbn; [apply sl_nil|now apply sl_skip|now apply sl_take]. Qed.

Lemma sublist_In {A} (l L : list A) x : sublist l L -> In x l -> In x L.
Proof.
  induction 1 as [L|y l1 l2 H IH|y l1 l2 H IH]; cbn; intros Hin; [contradiction|auto|].
  destruct Hin as [->|Hin]; auto.
Qed.

Lemma sublist_length {A} (l L : list A) : sublist l L -> (length l <= length L)%nat.
Proof. induction 1; cbn; lia. Qed.

Lemma sublist_sorted l L : sublist l L -> StronglySorted N.lt L -> StronglySorted N.lt l.
Proof.
  induction 1 as [L|y l1 l2 H IH|y l1 l2 H IH]; intros HS; [constructor| |];
    inversion HS as [|? ? HS' Hy]; subst; [auto|].
  constructor; [auto|]. rewrite Forall_forall in *. intros x Hx. apply Hy. eapply sublist_In; eauto.
Qed.

Fixpoint out_pkts (o : list frame) : list pkt :=
  match o with
  | [] => []
  | FD p :: r => p :: out_pkts r
  | _ :: r => out_pkts r
  end.

Lemma out_pkts_app a b : out_pkts (a ++ b) = out_pkts a ++ out_pkts b.
Proof. induction a as [|x a IH]; cbn; [reflexivity|]. destruct x; cbn; [apply f_equal|..]; exact IH. Qed.

Lemma out_pkts_in o p : In p (out_pkts o) <-> In (FD p) o.
Proof.
  induction o as [|x o IH]; cbn; [tauto|].
  destruct x; cbn; [|split; [intros H; right; apply IH, H|intros [H|H]; [discriminate|apply IH, H]]..].
  split; (intros [H|H]; [left; congruence|right; apply IH, H]).
Qed.

(* delivered, then still queued: in order of acceptance *)
Definition pkts (c : conn) : list pkt := out_pkts (c_out c) ++ c_pq c.

Lemma pkts_csame c c' : csame c c' -> pkts c' = pkts c.
Proof. intros (_ & E2 & E3 & _). unfold pkts. now rewrite E2, E3. Qed.

Lemma crel_pkts cfg s e k c c' :
  reg_ok s -> getc s k = Some c -> crel cfg s e k c c' ->
  sublist (pkts c') (pkts c) \/
  exists src d, routed cfg s e k (c_id c) src d /\ pkts c' = pkts c ++ [mkPkt src d (clock s)].
Proof.
  intros HR Hg (c1 & Hrel & H). rewrite (pkts_csame _ _ H). clear H c'.
  destruct Hrel as [|x Hx|dst src d Hrt _|p q Hq _|p q Hq _| | | | |];
    unfold pkts; conn_simpl; try (left; apply sublist_refl).
  - left. rewrite out_pkts_app.
    assert (out_pkts [x] = []) as -> by (destruct x; try reflexivity; exfalso; eapply Hx; reflexivity).
    rewrite app_nil_r. apply sublist_refl.
  - right. exists src, d. split; [|apply app_assoc].
    (* the entry's active connection has the entry's id *)
    enough (dst = c_id c) as <- by exact Hrt.
    destruct Hrt as (_ & _ & _ & en & _ & _ & _ & _ & _ & Hf & Hact).
    symmetry. exact (reg_ok_id _ _ _ _ _ HR Hf (or_introl (eq_sym Hact)) Hg).
  - left. rewrite Hq, out_pkts_app, <- app_assoc. apply sublist_refl.
  - left. rewrite Hq. apply sublist_remove_mid.
Qed.

(* step number [p_tag p] of the trace read p's datagram, addressed to [id], from a running
   connection authenticated as [p_src p], while k was the active connection of [id]: the
   clauses of [routed] (Proofs/C05.v) at that step, written out ([accepted_last]) *)
Definition accepted (cfg : cfg) (t : list event) (k : N) (id : bytes) (p : pkt) : Prop :=
  exists c' raw cs en,
    nth_error t (N.to_nat (p_tag p)) = Some (ERecv c' raw) /\
    decode (valid cfg) raw = Ok (CDatagrams id (p_dg p)) /\
    getc (run cfg (firstn (N.to_nat (p_tag p)) t)) c' = Some cs /\
    c_phase cs = Running /\ c_id cs = p_src p /\
    find_entry id (reg (run cfg (firstn (N.to_nat (p_tag p)) t))) = Some en /\ e_active en = k.

Lemma accepted_bound cfg t k id p : accepted cfg t k id p -> p_tag p < len t.
Proof.
  intros (c' & raw & cs & en & H1 & _).
  assert (N.to_nat (p_tag p) < length t)%nat by (apply nth_error_Some; congruence). unfold len. lia.
Qed.

Lemma accepted_weaken cfg t e k id p : accepted cfg t k id p -> accepted cfg (t ++ [e]) k id p.
Proof.
  intros (c' & raw & cs & en & H1 & H).
  assert (Hlt : (N.to_nat (p_tag p) < length t)%nat) by (apply nth_error_Some; congruence).
  exists c', raw, cs, en.
  rewrite nth_error_app1, firstn_app, (proj2 (Nat.sub_0_le _ _) (Nat.lt_le_incl _ _ Hlt)) by exact Hlt.
  cbn [firstn]. rewrite app_nil_r. exact (conj H1 H).
Qed.

Lemma accepted_last cfg t e k id src d :
  routed cfg (run cfg t) e k id src d -> accepted cfg (t ++ [e]) k id (mkPkt src d (len t)).
Proof.
  intros (k' & raw & cs & en & -> & Hr). exists k', raw, cs, en. cbn [p_tag p_dg p_src].
  unfold len. rewrite Nat2N.id, nth_error_app2, Nat.sub_diag, firstn_app_length by auto.
  now split.
Qed.

Lemma clock_run cfg t : clock (run cfg t) = len t.
Proof.
  pattern t, (run cfg t). apply run_ind; [reflexivity|]. intros t' e IH. now rewrite clock_step, IH, len_app.
Qed.

(* the acceptance record of a connection: each packet it was given names the step that accepted
   it for this connection, and the packets stand in the order of those steps *)
Record dinv (cfg : cfg) (t : list event) (k : N) (c : conn) : Prop := mkDinv {
  d_acc : forall p, In p (pkts c) -> accepted cfg t k (c_id c) p;
  d_sorted : StronglySorted N.lt (map p_tag (pkts c))
}.

Lemma dinv_run cfg t : allc (dinv cfg t) (run cfg t).
Proof.
  revert t. apply run_conn_ind; [split; [intros p []|constructor]|].
  intros t e k c c' HR Hc [D1 D2] Hrel. pose proof (crel_id _ _ _ _ _ _ Hrel) as Hid.
  apply (crel_pkts _ _ _ _ _ _ HR Hc) in Hrel as [Hs|(src & d & Hr & Hp)];
    (split; [intros p; rewrite Hid|]).
  - intros Hin. apply accepted_weaken, D1. eapply sublist_In; eauto.
  - eapply sublist_sorted; [apply sublist_map, Hs|exact D2].
  - rewrite Hp, clock_run. intros Hin.
    apply in_app_or in Hin as [Hin|[<-|[]]]; [apply accepted_weaken; auto|now apply accepted_last].
  - rewrite Hp, clock_run, map_app. apply sorted_snoc; [exact D2|].
    intros x Hx. apply in_map_iff in Hx as (p & <- & Hp'). eapply accepted_bound; eauto.
Qed.

Lemma delivery_sound cfg t k c p :
  getc (run cfg t) k = Some c -> In (FD p) (c_out c) -> accepted cfg t k (c_id c) p.
Proof.
  intros Hg Hin. apply (d_acc _ _ _ _ (dinv_run cfg t k c Hg)).
  apply in_or_app. left. now apply out_pkts_in.
Qed.

(* frames are written in the order in which their datagrams were accepted *)
Lemma fifo cfg t k c :
  getc (run cfg t) k = Some c -> StronglySorted N.lt (map p_tag (out_pkts (c_out c))).
Proof.
  intros Hg. eapply sublist_sorted; [|exact (d_sorted _ _ _ _ (dinv_run cfg t k c Hg))].
  apply sublist_map, sublist_app_r, sublist_refl.
Qed.

(* for any two frames of a connection, in particular those of one sender *)
Lemma fifo_per_pair cfg t k c i j p q :
  getc (run cfg t) k = Some c ->
  nth_error (out_pkts (c_out c)) i = Some p -> nth_error (out_pkts (c_out c)) j = Some q ->
  (i < j)%nat -> p_tag p < p_tag q.
Proof.
  intros Hg Hi Hj. apply (sorted_nth_lt _ (fifo cfg t k c Hg)); now rewrite nth_error_map, ?Hi, ?Hj.
Qed.

(* no accepted send is delivered twice, on one connection or on two *)
Lemma at_most_once cfg t k1 k2 c1 c2 i1 i2 p1 p2 :
  getc (run cfg t) k1 = Some c1 -> getc (run cfg t) k2 = Some c2 ->
  nth_error (out_pkts (c_out c1)) i1 = Some p1 -> nth_error (out_pkts (c_out c2)) i2 = Some p2 ->
  p_tag p1 = p_tag p2 -> k1 = k2 /\ i1 = i2.
Proof.
  intros Hg1 Hg2 Hn1 Hn2 Ht.
  assert (Hk : k1 = k2).
  { (* the step with that tag read one frame, for one id, which had one active connection *)
    pose proof (nth_error_In _ _ Hn1) as Hin1. pose proof (nth_error_In _ _ Hn2) as Hin2.
    apply out_pkts_in in Hin1, Hin2.
    destruct (delivery_sound cfg t k1 c1 p1 Hg1 Hin1) as (a1 & r1 & cs1 & en1 & A1 & A2 & _ & _ & _ & A6 & A7).
    destruct (delivery_sound cfg t k2 c2 p2 Hg2 Hin2) as (a2 & r2 & cs2 & en2 & B1 & B2 & _ & _ & _ & B6 & B7).
    rewrite Ht in A1, A6. rewrite A1 in B1. injection B1 as <- <-.
    rewrite A2 in B2. injection B2 as Hid _. rewrite Hid in A6. rewrite A6 in B6. injection B6 as <-.
    congruence. }
  subst k2. split; [reflexivity|]. rewrite Hg1 in Hg2. injection Hg2 as <-.
  (* the tags are sorted, hence without duplicates *)
  apply (proj1 (NoDup_nth_error _) (sorted_NoDup _ (fifo cfg t k1 c1 Hg1))).
  - rewrite map_length. apply nth_error_Some. congruence.
  - rewrite !nth_error_map, Hn1, Hn2. exact (f_equal Some Ht).
Qed.

(* (sender id, destination, datagram) of every datagram frame read, the sender being the k-th of
   [idl], the ids of the FINAL state: ids are kept and spawns only extend the list ([ids_step]),
   so one list serves all steps.  Whether k exists and is running then is not asked: this
   bounds what is accepted from above; [routes] (Model/C04.v) is the exact record. *)
Definition dsend_of (idl : list bytes) (vld : bytes -> bool) (e : event) : list (bytes * bytes * dgram) :=
  match e with
  | ERecv k raw =>
      match nth_error idl (N.to_nat k), decode vld raw with
      | Some s, Ok (CDatagrams d dg) => [(s, d, dg)]
      | _, _ => []
      end
  | _ => []
  end.
Definition dsends_of idl vld (t : list event) := flat_map (dsend_of idl vld) t.
(* of the sends [L], those addressed to [dst], as (sender id, datagram) *)
Definition to_dst (dst : bytes) (L : list (bytes * bytes * dgram)) : list (bytes * dgram) :=
  map (fun x => (fst (fst x), snd x)) (filter (fun x => bytes_eqb (snd (fst x)) dst) L).
(* what connection c was given, as (sender id, datagram): [pkts c] without the tags, with [pkts]
   written out, so the tie is by conversion ([kinv2_run] folds it by [change]) *)
Definition held (c : conn) : list (bytes * dgram) :=
  map (fun p => (p_src p, p_dg p)) (out_pkts (c_out c) ++ c_pq c).

Lemma held_out c M :
  sublist (held c) M -> sublist (map (fun p => (p_src p, p_dg p)) (out_pkts (c_out c))) M.
Proof. apply sublist_trans. unfold held. rewrite map_app. apply sublist_app_r, sublist_refl. Qed.

Lemma to_dst_app d a b : to_dst d (a ++ b) = to_dst d a ++ to_dst d b.
Proof. unfold to_dst. rewrite filter_app. apply map_app. Qed.

Lemma to_dst_in s d dst L : In (s, d) (to_dst dst L) -> In (s, dst, d) L.
Proof.
  unfold to_dst. intros H. apply in_map_iff in H as ([[s0 dst0] d0] & [= <- <-] & H).
  apply filter_In in H as [H E]. apply bytes_eqb_eq in E. now subst.
Qed.

Lemma to_dst_mono d L L' : sublist L L' -> sublist (to_dst d L) (to_dst d L').
Proof. intros H. unfold to_dst. apply sublist_map, sublist_filter, H. Qed.

Lemma to_conn_app k a b : to_conn k (a ++ b) = to_conn k a ++ to_conn k b.
Proof. unfold to_conn. rewrite filter_app. apply map_app. Qed.

Lemma routes_from_app cfg : forall t1 s t2,
  routes_from cfg s (t1 ++ t2) = routes_from cfg s t1 ++ routes_from cfg (run_from cfg s t1) t2.
Proof.
  induction t1 as [|a t1 IH]; intros s t2; cbn [app routes_from]; [reflexivity|].
  rewrite IH, <- app_assoc. reflexivity.
Qed.

Lemma routes_snoc cfg t e : routes cfg (t ++ [e]) = routes cfg t ++ route_of cfg (run cfg t) e.
Proof. unfold routes. rewrite routes_from_app. cbn [routes_from]. rewrite app_nil_r. reflexivity. Qed.

Lemma routed_route cfg s e k id src d :
  routed cfg s e k id src d -> to_conn k (route_of cfg s e) = [(src, d)].
Proof.
  intros (k' & raw & cs & en & -> & Hd & Hc & Hph & <- & Hf & <-). cbn [route_of].
  rewrite Hc. unfold is_running. rewrite Hph, Hd, Hf. unfold to_conn. cbn. now rewrite N.eqb_refl.
Qed.

(* the send a route stems from: its destination is the id of the connection routed to *)
Definition route_send (idl : list bytes) (r : N * (bytes * dgram)) : list (bytes * bytes * dgram) :=
  match nth_error idl (N.to_nat (fst r)) with
  | Some dst => [(fst (snd r), dst, snd (snd r))]
  | None => []
  end.

Lemma route_send_step cfg s e x :
  reg_ok s ->
  sublist (flat_map (route_send (ids s ++ x)) (route_of cfg s e)) (dsend_of (ids s ++ x) (valid cfg) e).
Proof.
  intros HR. destruct e; try apply sl_nil. cbn [route_of dsend_of].
  destruct (getc s k) as [cs|] eqn:Hk; [|apply sl_nil]. destruct (is_running cs); [|apply sl_nil].
  rewrite (nth_error_app_some _ x _ _ (getc_ids _ _ _ Hk)).
  destruct (decode (valid cfg) raw) as [[dst d|?|?]|?|]; try apply sl_nil.
  destruct (find_entry dst (reg s)) as [en|] eqn:Hf; [|apply sl_nil].
  unfold route_send. cbn [flat_map fst snd].
  rewrite (nth_error_app_some _ x _ _ (reg_ok_find _ _ _ _ HR Hf (or_introl eq_refl))). apply sublist_refl.
Qed.

(* [to_conn k (routes cfg t)]: the sends accepted while k was the active connection of its id *)
Lemma kinv2_run cfg t : allc (fun k c => sublist (held c) (to_conn k (routes cfg t))) (run cfg t).
Proof.
  revert t. apply run_conn_ind; [constructor|]. intros t e k c c' HR Hc IH Hrel. rewrite routes_snoc, to_conn_app.
  change (held c') with (map (fun p => (p_src p, p_dg p)) (pkts c')).
  apply (crel_pkts _ _ _ _ _ _ HR Hc) in Hrel as [Hs|(src & d & Hr & ->)].
  - apply sublist_app_r. eapply sublist_trans; [apply sublist_map, Hs|exact IH].
  - rewrite map_app, (routed_route _ _ _ _ _ _ _ Hr). apply sublist_app2; [exact IH|apply sublist_refl].
Qed.

Lemma routes_sends cfg t :
  sublist (flat_map (route_send (ids (run cfg t))) (routes cfg t))
          (dsends_of (ids (run cfg t)) (valid cfg) t).
Proof.
  (* a step reads the ids of its own state, a prefix of the final list: carry the rest as [x] *)
  rewrite <- (app_nil_r (ids _)). generalize (@nil bytes).
  pattern t, (run cfg t). apply run_ind; [intros x; apply sl_nil|]. clear t. intros t e IH x.
  rewrite ids_step, <- app_assoc, routes_snoc. unfold dsends_of. rewrite !flat_map_app. cbn [flat_map]. rewrite app_nil_r.
  apply sublist_app2; [apply IH|apply route_send_step, reg_ok_run].
Qed.

Lemma to_conn_route_send idl k id : nth_error idl (N.to_nat k) = Some id -> forall R,
  sublist (to_conn k R) (to_dst id (flat_map (route_send idl) R)).
Proof.
  intros Hk. induction R as [|[j [src d]] R IH]; [apply sl_nil|]. cbn [flat_map]. rewrite to_dst_app.
  unfold to_conn. cbn [filter fst]. destruct (N.eqb_spec j k) as [->|_]; [|apply sublist_app_skip, IH].
  unfold route_send. cbn [fst snd]. rewrite Hk. unfold to_dst at 1. cbn [filter map fst snd app].
  rewrite bytes_eqb_refl. apply sl_take, IH.
Qed.

Lemma kinv_run cfg t :
  allc (fun k c => sublist (held c) (to_dst (c_id c) (dsends_of (ids (run cfg t)) (valid cfg) t))) (run cfg t).
Proof.
  intros k c Hg. eapply sublist_trans; [exact (kinv2_run cfg t k c Hg)|].
  eapply sublist_trans; [exact (to_conn_route_send _ _ _ (getc_ids _ _ _ Hg) _)|].
  apply to_dst_mono, routes_sends.
Qed.

Lemma dsends_of_erecvs idl vld t :
  dsends_of idl vld t =
  flat_map (fun kr => match nth_error idl (N.to_nat (fst kr)), decode vld (snd kr) with
                      | Some src, Ok (CDatagrams dst d) => [(src, dst, d)]
                      | _, _ => []
                      end) (erecvs t).
Proof.
  induction t as [|e t IH]; [reflexivity|].
  unfold dsends_of, erecvs in *. cbn [flat_map]. rewrite flat_map_app, <- IH.
  destruct e; try reflexivity. cbn [flat_map fst snd]. rewrite app_nil_r. reflexivity.
Qed.

Lemma exec_run i : fst (exec (cfg_of i) (i_ops i)) = run (cfg_of i) (trace_of i).
Proof. exact (s_run _ _ _ _ _ (sched_exec (cfg_of i) (i_ops i))). Qed.

Lemma ids_exec i : ids (run (cfg_of i) (trace_of i)) = conn_ids (i_ops i).
Proof. rewrite <- exec_run. exact (s_ids _ _ _ _ _ (sched_exec (cfg_of i) (i_ops i))). Qed.

Lemma dsends_exec i :
  dsends i = dsends_of (ids (run (cfg_of i) (trace_of i))) (valid (cfg_of i)) (trace_of i).
Proof.
  unfold dsends. rewrite dsends_of_erecvs, ids_exec.
  unfold trace_of. now rewrite (s_recv _ _ _ _ _ (sched_exec (cfg_of i) (i_ops i))).
Qed.

Definition frame_of (src : bytes) (d : dgram) : oframe := OD src (d_ecn d) (d_seg d) (d_data d).

Lemma dg_matches_frame_of src d : dg_matches d (frame_of src d) = true.
Proof. cbn. now rewrite N.eqb_refl, bytes_eqb_refl, opt_N_eqb_refl. Qed.

Lemma matches_frame_of src d f :
  dg_matches d f = true -> from_src src f = true -> f = frame_of src d.
Proof.
  destruct f; cbn; try discriminate. intros H Hs.
  apply andb_prop in H as [H H3]. apply andb_prop in H as [H1 H2].
  apply bytes_eqb_eq in Hs, H3. apply N.eqb_eq in H1. apply opt_N_eqb_eq in H2.
  unfold frame_of. congruence.
Qed.

(* the greedy [subseq] finds an embedding whenever there is one: it may drop a frame ... *)
Lemma subseq_tail : forall ds f fs, subseq (f :: fs) ds = true -> subseq fs ds = true.
Proof.
  induction ds as [|d ds IH]; intros f fs H; [discriminate|]. cbn [subseq] in H.
  assert (Hskip : forall gs, subseq gs ds = true -> subseq gs (d :: ds) = true).
  { intros [|g gs] Hg; [reflexivity|]. cbn [subseq]. destruct (dg_matches d g); [exact (IH _ _ Hg)|exact Hg]. }
  destruct (dg_matches d f); apply Hskip; [exact H|exact (IH _ _ H)].
Qed.

(* ... or a datagram *)
Lemma subseq_skip d fs ds : subseq fs ds = true -> subseq fs (d :: ds) = true.
Proof.
  destruct fs as [|f fs]; [reflexivity|]. intros H. cbn [subseq].
  destruct (dg_matches d f); [exact (subseq_tail _ _ _ H)|exact H].
Qed.

(* stated on [filter (from_src src) fs], the form the monitors test; what is used of it is only
   that every frame names [src] *)
Lemma subseq_spec src fs ds :
  subseq (filter (from_src src) fs) ds = true <->
  exists ds', sublist ds' ds /\ filter (from_src src) fs = map (frame_of src) ds'.
Proof.
  assert (HF : Forall (fun f => from_src src f = true) (filter (from_src src) fs))
    by (apply Forall_forall; intros f Hf; now apply filter_In in Hf).
  revert HF. generalize (filter (from_src src) fs). clear fs. intros fs HF. split.
  - revert fs HF. induction ds as [|d ds IH]; intros [|f fs] HF H; try discriminate;
      try (exists []; split; [constructor|reflexivity]).
    cbn [subseq] in H. destruct (dg_matches d f) eqn:E.
    + inversion HF as [|? ? Hf HF']; subst. destruct (IH _ HF' H) as (ds' & S & ->).
      exists (d :: ds'). split; [now apply sl_take|]. cbn [map]. f_equal. now apply matches_frame_of.
    + destruct (IH _ HF H) as (ds' & S & E'). exists ds'. split; [now apply sl_skip|exact E'].
  - intros (ds' & S & ->). clear HF.
    induction S as [L|x l1 l2 H IH|x l1 l2 H IH]; cbn [map].
    + now destruct L.
    + now apply subseq_skip.
    + cbn [subseq]. now rewrite dg_matches_frame_of.
Qed.

Lemma obs_from_src src o :
  filter (from_src src) (map obs_frame o) =
  map (frame_of src)
    (map snd (filter (fun x => bytes_eqb (fst x) src) (map (fun p => (p_src p, p_dg p)) (out_pkts o)))).
Proof.
  induction o as [|f o IH]; [reflexivity|].
  destruct f; cbn [map obs_frame filter from_src out_pkts fst]; try exact IH.
  destruct (bytes_eqb (p_src p) src) eqn:E; [|exact IH].
  apply bytes_eqb_eq in E. cbn [map snd]. rewrite IH, <- E. reflexivity.
Qed.

Lemma obs_subseq src c (M : list (bytes * dgram)) :
  sublist (held c) M ->
  subseq (filter (from_src src) (map obs_frame (c_out c)))
         (map snd (filter (fun x => bytes_eqb (fst x) src) M)) = true.
Proof.
  intros H. apply subseq_spec.
  eexists. split; [|apply obs_from_src]. apply sublist_map, sublist_filter, held_out, H.
Qed.

Lemma pair_sends_to_dst i src dst :
  pair_sends i src dst = map snd (filter (fun x => bytes_eqb (fst x) src) (to_dst dst (dsends i))).
Proof.
  unfold pair_sends, to_dst. induction (dsends i) as [|x L IH]; [reflexivity|]. cbn [filter].
  destruct (bytes_eqb (snd (fst x)) dst); [|rewrite andb_false_r; exact IH].
  rewrite andb_true_r. cbn [map filter fst].
  destruct (bytes_eqb (fst (fst x)) src); cbn [map snd]; [apply f_equal|]; exact IH.
Qed.

Lemma dsends_src i s d dg : In (s, d, dg) (dsends i) -> In s (conn_ids (i_ops i)).
Proof.
  unfold dsends. intros H. apply in_flat_map in H as (kr & _ & H).
  destruct (nth_error (conn_ids (i_ops i)) (N.to_nat (fst kr))) as [src|] eqn:E; [|contradiction].
  destruct (decode (valid (cfg_of i)) (snd kr)) as [[dst0 d0|?|?]|?|]; try contradiction.
  destruct H as [H|[]]. injection H as <- _ _. eapply nth_error_In; eauto.
Qed.

Lemma pair_sends_src i src dst d : In d (pair_sends i src dst) -> In src (conn_ids (i_ops i)).
Proof.
  unfold pair_sends. intros H. apply in_map_iff in H as ([[s d0] dg] & _ & H).
  apply filter_In in H as [H E]. cbn [fst snd] in E. apply andb_prop in E as [E _].
  apply bytes_eqb_eq in E. subst s. eapply dsends_src; eauto.
Qed.

(* [conn_sound], the per-connection clause of [monitor1], as a Prop.  [fs]: the frames seen
   on the socket of one connection authenticated as [dst].  For EVERY id [src], those naming
   [src] are, in order, the frames of a sublist of what connections authenticated as [src] sent
   to [dst].  So no frame names a sender that sent nothing to [dst], and ecn, segment size and
   contents are those sent. *)
Definition conn_spec (i : input) (dst : bytes) (fs : list oframe) : Prop :=
  forall src, exists ds,
    sublist ds (pair_sends i src dst) /\ filter (from_src src) fs = map (frame_of src) ds.

Definition spec (i : input) (o : output) : Prop :=
  exists l, o = Ok l /\
    Forall2 (fun dst x => conn_spec i dst (snd x)) (conn_ids (i_ops i)) l.

Lemma conn_sound_spec i dst fs : conn_sound i dst fs = true <-> conn_spec i dst fs.
Proof.
  unfold conn_sound, conn_spec. set (srcs := conn_ids (i_ops i)). eapply iff_trans.
  { apply andb_iff.
    - apply forallb_iff; intros f. apply nimpb_iff; [apply iff_refl|]. apply existsb_iff; intros k. apply iff_refl.
    - apply forallb_iff; intros src. apply subseq_spec. }
  (* the test bounds the ids of the case only; of any other id it says that no frame names it *)
  split.
  - intros [H1 H2] src. destruct (in_dec (list_eq_dec N.eq_dec) src srcs) as [Hin|Hn]; [exact (H2 src Hin)|].
    exists []. split; [constructor|]. apply filter_none. intros f Hf.
    destruct (from_src src f) eqn:Hs; [exfalso|reflexivity]. destruct f; try discriminate Hs.
    destruct (H1 _ Hf eq_refl) as (k & Hk & E). cbn in Hs, E. apply bytes_eqb_eq in Hs, E. subst src k.
    exact (Hn Hk).
  - intros H. split; [|intros src _; apply H].
    intros f Hf Hod. destruct f; try discriminate Hod. exists src. split; [|cbn; apply bytes_eqb_refl].
    destruct (H src) as (ds & S & E).
    pose proof (proj2 (filter_In (from_src src) _ fs) (conj Hf (bytes_eqb_refl src))) as Hin.
    rewrite E in Hin. apply in_map_iff in Hin as (d & _ & Hd).
    exact (pair_sends_src i src dst d (sublist_In _ _ _ S Hd)).
Qed.

Lemma model_monitor1 i : C04.monitor1 i (C04.model i) = true.
Proof.
  unfold C04.monitor1, C04.model, observe.
  rewrite exec_run, <- (ids_exec i). unfold ids.
  rewrite !map_length, Nat.eqb_refl, combine_map_map. apply forallb_forall.
  intros [id [alive fs]] Hin. apply in_map_iff in Hin as (c & [= <- <- <-] & Hc). cbn [fst snd].
  apply In_nth_error in Hc as [n Hg]. rewrite <- getc_of_nat in Hg.
  apply conn_sound_spec. intros src. apply subseq_spec.
  rewrite pair_sends_to_dst, dsends_exec. apply obs_subseq. exact (kinv_run _ _ _ _ Hg).
Qed.

Lemma monitor1_spec i o : C04.monitor1 i o = true <-> spec i o.
Proof.
  unfold C04.monitor1, spec. apply ok_iff; intros l.
  apply (forallb_combine_Forall2 _ (fun dst x => conn_spec i dst (snd x))). intros a b. apply conn_sound_spec.
Qed.

(* [monitor1] judges each connection on its own: it does NOT say that a datagram is not
   delivered on two connections of one id.  B is connected twice, A sends ONE datagram to B,
   and an observation showing it on both of B's sockets passes. *)
Example monitor_is_per_connection :
  let i := mkInput 0 [(idA, true); (idB, true)]
             [OConnect idA 2; OConnect idB 2; OConnect idB 2; OSend 0 (4 :: idB ++ [1; 9])] in
  let o := Ok [(true, []); (true, [OD idA 1 None [9]]); (true, [OD idA 1 None [9]])] in
  length (dsends i) = 1%nat /\ C04.monitor1 i o = true /\ C04.agree i o = false.
Proof. vm_compute. repeat split. Qed.

Lemma in_combine_seq {A} : forall (l : list A) n k x,
  In (k, x) (combine (map N.of_nat (seq n (length l))) l) <->
  exists j, k = N.of_nat (n + j) /\ nth_error l j = Some x.
Proof.
  induction l as [|a l IH]; intros n k x; cbn [length seq map combine In].
  - split; [contradiction|]. intros (j & _ & H). destruct j; discriminate.
  - rewrite IH. split.
    + intros [E|(j & -> & H)].
      * injection E as <- <-. exists 0%nat. rewrite Nat.add_0_r. split; reflexivity.
      * exists (S j). rewrite Nat.add_succ_r. split; [reflexivity|exact H].
    + intros ([|j] & -> & H).
      * left. injection H as <-. rewrite Nat.add_0_r. reflexivity.
      * right. exists j. rewrite Nat.add_succ_r. split; [reflexivity|exact H].
Qed.

Lemma in_combine_indices {A} (l : list A) k x :
  In (k, x) (combine (indices l) l) <-> exists j, k = N.of_nat j /\ nth_error l j = Some x.
Proof. unfold indices. rewrite in_combine_seq. reflexivity. Qed.

Lemma model_monitor2 i : C04.monitor2 i (C04.model i) = true.
Proof.
  unfold C04.monitor2, C04.model, observe. rewrite exec_run. cbv zeta.
  apply forallb_forall. intros [k [alive fs]] Hin.
  apply in_combine_indices in Hin as (j & -> & Hn).
  rewrite nth_error_map, <- getc_of_nat in Hn.
  destruct (getc _ (N.of_nat j)) as [c|] eqn:Hg; [|discriminate]. injection Hn as <- <-.
  apply forallb_forall. intros src _. apply obs_subseq. exact (kinv2_run _ _ _ _ Hg).
Qed.

Lemma model_monitor i : C04.monitor i (C04.model i) = true.
Proof. unfold C04.monitor. now rewrite model_monitor1, model_monitor2. Qed.

(* [monitor2], as a Prop.  On connection NUMBER k the frames naming [src] are those of a
   sublist of what [src] sent while k was the ACTIVE connection of its id (by the registry
   history of the script); a frame on an inactive duplicate has no such send. *)
Definition spec2 (i : input) (o : output) : Prop :=
  exists l, o = Ok l /\
    forall k x, nth_error l k = Some x -> forall src, In src (conn_ids (i_ops i)) ->
      exists ds, sublist ds (conn_routed (routes (cfg_of i) (trace_of i)) (N.of_nat k) src) /\
                 filter (from_src src) (snd x) = map (frame_of src) ds.

Lemma monitor2_spec i o : C04.monitor2 i o = true <-> spec2 i o.
Proof.
  unfold C04.monitor2, spec2. apply ok_iff; intros l. cbv zeta. eapply iff_trans.
  { apply forallb_iff; intros kx. apply forallb_iff; intros src. apply subseq_spec. }
  split.
  - intros H k x Hn. apply (H (N.of_nat k, x)), in_combine_indices. eauto.
  - intros H [k x] Hin. apply in_combine_indices in Hin as (j & -> & Hn). exact (H j x Hn).
Qed.

Lemma monitor_spec i o : C04.monitor i o = true <-> spec i o /\ spec2 i o.
Proof. apply andb_iff; [apply monitor1_spec|apply monitor2_spec]. Qed.

(* The observation of [monitor_is_per_connection] passes [monitor1] and fails [monitor2], with
   or without the frame on connection 2: connection 1 was not B's active connection when the
   send was accepted *)
Example monitor_rejects_inactive_delivery :
  let i := mkInput 0 [(idA, true); (idB, true)]
             [OConnect idA 2; OConnect idB 2; OConnect idB 2; OSend 0 (4 :: idB ++ [1; 9])] in
  let o := Ok [(true, []); (true, [OD idA 1 None [9]]); (true, [OD idA 1 None [9]])] in
  let o' := Ok [(true, []); (true, [OD idA 1 None [9]]); (true, [])] in
  C04.monitor1 i o = true /\ C04.monitor i o = false /\
  C04.monitor1 i o' = true /\ C04.monitor i o' = false /\
  to_conn 2 (routes (cfg_of i) (trace_of i)) = [(idA, mkDg 1 None [9])] /\
  to_conn 1 (routes (cfg_of i) (trace_of i)) = [].
Proof. vm_compute. repeat split. Qed.

Definition dgram_eqb (a b : dgram) : bool :=
  N.eqb (d_ecn a) (d_ecn b) && opt_eqb N.eqb (d_seg a) (d_seg b) && bytes_eqb (d_data a) (d_data b).

(* the standard library's [list_sum] written out, and convertible to it ([list_sum] is a [fold_right]) *)
Fixpoint lsum (l : list nat) : nat := match l with [] => 0%nat | x :: r => (x + lsum r)%nat end.

Definition cross_count (idl : list bytes) (l : list (bool * list oframe)) (dst : bytes) (f : oframe) : nat :=
  lsum (map (fun x => if bytes_eqb (fst x) dst then count f (snd (snd x)) else 0%nat) (combine idl l)).

(* Frames carry no identity of the send they stem from, so on observed frames "not delivered
   on two connections of one id" is a count: on all sockets of connections authenticated as
   [dst] together, frame (src, d) shows up at most as often as [src] sent d to [dst]. *)
Definition cross_once (i : input) (src : bytes) (l : list (bool * list oframe)) : Prop :=
  forall dst d,
    (cross_count (conn_ids (i_ops i)) l dst (frame_of src d)
     <= length (filter (dgram_eqb d) (pair_sends i src dst)))%nat.

(* how often [src] has [d] in M, counted as [cross_once] counts the sends *)
Definition hits (src : bytes) (d : dgram) (M : list (bytes * dgram)) : nat :=
  length (filter (dgram_eqb d) (map snd (filter (fun x => bytes_eqb (fst x) src) M))).

Lemma sublist_hits src d l L : sublist l L -> (hits src d l <= hits src d L)%nat.
Proof. intros H. apply sublist_length, sublist_filter, sublist_map, sublist_filter, H. Qed.

Lemma hits_app src d a b : hits src d (a ++ b) = (hits src d a + hits src d b)%nat.
Proof. unfold hits. now rewrite filter_app, map_app, filter_app, app_length. Qed.

Lemma oframe_eqb_od s e g x f : oframe_eqb (OD s e g x) f = true -> f = OD s e g x.
Proof.
  destruct f; cbn; try discriminate. intros H.
  apply andb_prop in H as [H H4]. apply andb_prop in H as [H H3]. apply andb_prop in H as [H1 H2].
  apply bytes_eqb_eq in H1, H4. apply N.eqb_eq in H2. apply opt_N_eqb_eq in H3. congruence.
Qed.

Lemma count_from_src src d fs :
  count (frame_of src d) fs = count (frame_of src d) (filter (from_src src) fs).
Proof.
  unfold count. induction fs as [|f fs IH]; [reflexivity|]. cbn [filter].
  destruct (oframe_eqb (frame_of src d) f) eqn:E.
  - assert (Hs : from_src src f = true).
    { rewrite (oframe_eqb_od _ _ _ _ _ E). cbn. apply bytes_eqb_refl. }
    rewrite Hs. cbn [filter]. rewrite E. cbn [length]. now rewrite IH.
  - destruct (from_src src f); [|exact IH]. cbn [filter]. rewrite E. exact IH.
Qed.

Lemma count_frame_of src d ds : count (frame_of src d) (map (frame_of src) ds) = length (filter (dgram_eqb d) ds).
Proof.
  unfold count. induction ds as [|d' ds IH]; [reflexivity|]. cbn [map filter].
  replace (oframe_eqb (frame_of src d) (frame_of src d')) with (dgram_eqb d d')
    by (unfold dgram_eqb; cbn; now rewrite bytes_eqb_refl).
  destruct (dgram_eqb d d'); cbn [length]; now rewrite IH.
Qed.

Lemma count_obs src d o :
  count (frame_of src d) (map obs_frame o) = hits src d (map (fun p => (p_src p, p_dg p)) (out_pkts o)).
Proof. rewrite count_from_src, obs_from_src. apply count_frame_of. Qed.

Lemma lsum_le_add {A} (f g h : A -> nat) l :
  (forall a, In a l -> (f a <= g a + h a)%nat) -> (lsum (map f l) <= lsum (map g l) + lsum (map h l))%nat.
Proof.
  induction l as [|a l IH]; intros H; [apply Nat.le_0_l|]. cbn [map lsum].
  pose proof (H a (or_introl eq_refl)). specialize (IH (fun b Hb => H b (or_intror Hb))). lia.
Qed.

Lemma lsum_nth {A} (g : A -> nat) (h : nat -> nat) : forall l a,
  (forall n c, nth_error l n = Some c -> (g c <= h (a + n))%nat) ->
  (lsum (map g l) <= lsum (map h (seq a (length l))))%nat.
Proof.
  induction l as [|c l IH]; intros a H; [apply Nat.le_0_l|]. cbn [map lsum length seq].
  apply Nat.add_le_mono; [rewrite <- (Nat.add_0_r a); exact (H 0%nat c eq_refl)|].
  apply IH. intros n c' Hn. rewrite Nat.add_succ_comm. exact (H (S n) c' Hn).
Qed.

(* the sum over [seq a n] of what is [dl] at index [k0] and 0 elsewhere *)
Lemma ind_sum k0 (dl : nat) : forall n a,
  (lsum (map (fun k => if Nat.eqb k k0 then dl else 0%nat) (seq a n)) <=
   if Nat.ltb k0 a then 0 else dl)%nat.
Proof.
  induction n as [|n IH]; intros a; cbn [seq map lsum]; [apply Nat.le_0_l|].
  specialize (IH (S a)).
  destruct (Nat.eqb_spec a k0), (Nat.ltb_spec k0 a), (Nat.ltb_spec k0 (S a)); lia.
Qed.

(* how often the connection at position n of [idl] was routed d from [src], if its id is [dst] *)
Definition share (idl : list bytes) (dst : bytes) (src : bytes) (d : dgram) (R : list (N * (bytes * dgram))) (n : nat) : nat :=
  match nth_error idl n with
  | Some id => if bytes_eqb id dst then hits src d (to_conn (N.of_nat n) R) else 0%nat
  | None => 0%nat
  end.

(* a route goes to one connection: the shares of the connections of one id count disjoint parts of the routes *)
Lemma routed_count idl dst src d m : forall R,
  (lsum (map (share idl dst src d R) (seq 0 m)) <= hits src d (to_dst dst (flat_map (route_send idl) R)))%nat.
Proof.
  induction R as [|r R IH].
  - induction (seq 0 m) as [|n l IHl]; [apply Nat.le_0_l|]. cbn [map lsum]. unfold share at 1.
    destruct (nth_error idl n) as [id|]; [destruct (bytes_eqb id dst)|]; exact IHl.
  - cbn [flat_map]. rewrite to_dst_app, hits_app, Nat.add_comm.
    eapply Nat.le_trans; [apply (lsum_le_add _ (share idl dst src d R)
      (fun n => if Nat.eqb n (N.to_nat (fst r)) then hits src d (to_dst dst (route_send idl r)) else 0%nat))|].
    2: apply Nat.add_le_mono; [exact IH|apply (ind_sum _ _ m 0)].
    intros n _. unfold share. destruct (nth_error idl n) as [id|] eqn:En; [|apply Nat.le_0_l].
    destruct (bytes_eqb id dst) eqn:E; [|apply Nat.le_0_l]. apply bytes_eqb_eq in E. subst id.
    change (r :: R) with ([r] ++ R). rewrite to_conn_app, hits_app, Nat.add_comm. apply Nat.add_le_mono_l.
    destruct (Nat.eqb_spec n (N.to_nat (fst r))) as [->|Hne].
    + apply sublist_hits. rewrite <- (app_nil_r (route_send idl r)).
      apply (to_conn_route_send idl _ dst). now rewrite Nat2N.id.
    + unfold to_conn. cbn [filter]. destruct (N.eqb_spec (fst r) (N.of_nat n)) as [E|_]; [|apply Nat.le_0_l].
      exfalso. apply Hne. rewrite E. symmetry. apply Nat2N.id.
Qed.

Lemma ginv_run cfg t dst src d m :
  (lsum (map (share (ids (run cfg t)) dst src d (routes cfg t)) (seq 0 m)) <=
   hits src d (to_dst dst (dsends_of (ids (run cfg t)) (valid cfg) t)))%nat.
Proof.
  eapply Nat.le_trans; [apply routed_count|].
  apply sublist_hits, to_dst_mono, routes_sends.
Qed.

Lemma model_cross_once i src :
  exists l, C04.model i = Ok l /\ cross_once i src l.
Proof.
  unfold C04.model. rewrite exec_run. eexists. split; [reflexivity|]. intros dst d.
  unfold cross_count, observe. rewrite <- (ids_exec i). unfold ids at 1. rewrite combine_map_map, map_map. cbn [fst snd].
  rewrite pair_sends_to_dst, dsends_exec.
  eapply Nat.le_trans; [|apply ginv_run].
  apply (lsum_nth _ _ _ 0). intros n c Hn. unfold share, ids. cbn [Nat.add]. rewrite nth_error_map, Hn. cbn [option_map].
  destruct (bytes_eqb (c_id c) dst); [|apply Nat.le_0_l].
  rewrite count_obs. apply sublist_hits, held_out, (kinv2_run _ _ (N.of_nat n)). rewrite getc_of_nat. exact Hn.
Qed.

Lemma list_eqb_od a : forall b, Forall (fun f => is_od f = true) a -> list_eqb oframe_eqb a b = true -> a = b.
Proof.
  induction a as [|f a IH]; intros [|g b] HF H; cbn in H; try discriminate; [reflexivity|].
  inversion HF as [|? ? Hf HF']; subst. apply andb_prop in H as [H1 H2].
  destruct f; try discriminate. apply oframe_eqb_od in H1. subst g. f_equal. now apply IH.
Qed.

Lemma agree_count keys src d : In src keys -> forall idl (m l : list (bool * list oframe)),
  list_eqb (conn_agree keys) m l = true -> forall dst,
  cross_count idl l dst (frame_of src d) = cross_count idl m dst (frame_of src d).
Proof.
  intros Hin idl. unfold cross_count.
  induction idl as [|id idl IH]; intros m l H dst; [reflexivity|].
  destruct m as [|mj m], l as [|lj l]; cbn in H; try discriminate; [reflexivity|].
  apply andb_prop in H as [Hj H]. cbn [combine map lsum fst snd]. rewrite (IH m l H dst). apply Nat.add_cancel_r.
  destruct (bytes_eqb id dst); [|reflexivity].
  unfold conn_agree in Hj. apply andb_prop in Hj as [_ Hj]. unfold frames_agree in Hj.
  apply andb_prop in Hj as [Hj _]. apply andb_prop in Hj as [_ Hj].
  rewrite forallb_forall in Hj. specialize (Hj src Hin).
  apply list_eqb_od in Hj.
  - rewrite (count_from_src src d (snd lj)), (count_from_src src d (snd mj)). now rewrite Hj.
  - apply Forall_forall. intros f Hf. apply filter_In in Hf as [_ Hf]. now destruct f.
Qed.

Lemma agree_cross_once i l src :
  C04.agree i (Ok l) = true -> In src (map fst (i_keys i)) -> cross_once i src l.
Proof.
  intros H Hin dst d. destruct (model_cross_once i src) as (m & Hm & Hc).
  unfold C04.agree in H. rewrite Hm in H.
  rewrite (agree_count _ src d Hin _ m l H dst). apply Hc.
Qed.

(* [cross_once] refuses the observation that [monitor1] lets through *)
Example cross_once_rejects :
  let i := mkInput 0 [(idA, true); (idB, true)]
             [OConnect idA 2; OConnect idB 2; OConnect idB 2; OSend 0 (4 :: idB ++ [1; 9])] in
  ~ cross_once i idA [(true, []); (true, [OD idA 1 None [9]]); (true, [OD idA 1 None [9]])].
Proof.
  intros i H. specialize (H idB (mkDg 1 None [9])). vm_compute in H. lia.
Qed.

Lemma Forall2_imp {A B} (P Q : A -> B -> Prop) l1 l2 :
  (forall a b, P a b -> Q a b) -> Forall2 P l1 l2 -> Forall2 Q l1 l2.
Proof. intros H. induction 1; constructor; auto. Qed.

Lemma monitor_cross_once_unconnected i l src :
  C04.monitor1 i (Ok l) = true -> ~ In src (conn_ids (i_ops i)) -> cross_once i src l.
Proof.
  intros Hm Hn dst d. apply monitor1_spec in Hm as (l' & E & HF). injection E as <-.
  assert (HZ : Forall2 (fun (_ : bytes) x => count (frame_of src d) (snd x) = 0%nat) (conn_ids (i_ops i)) l).
  { eapply Forall2_imp; [|exact HF]. cbn beta. intros id x Hx.
    rewrite count_from_src. destruct (Hx src) as (ds & S & ->).
    destruct ds as [|d0 ds]; [reflexivity|]. exfalso. apply Hn.
    apply (pair_sends_src i src id d0). eapply sublist_In; [exact S|now left]. }
  clear HF Hn. unfold cross_count.
  induction HZ as [|id x idl l Hz HZ IH]; [apply Nat.le_0_l|].
  cbn [combine map lsum fst snd]. rewrite Hz. destruct (bytes_eqb id dst); cbn [Nat.add]; exact IH.
Qed.

(* [agree] bounds the senders in the key table, [monitor1] those of no connection; the third
   hypothesis, that the table lists the ids of the connections, is how the harness builds it *)
Lemma judge_cross_once' i o :
  C04.agree i o = true -> C04.monitor i o = true ->
  (forall id, In id (conn_ids (i_ops i)) -> In id (map fst (i_keys i))) ->
  exists l, o = Ok l /\ forall src, cross_once i src l.
Proof.
  intros Ha Hm Hk. apply andb_true_iff in Hm as [Hm _]. destruct o as [l|?|]; try discriminate. exists l. split; [reflexivity|]. intros src.
  destruct (in_dec (list_eq_dec N.eq_dec) src (conn_ids (i_ops i))) as [Hin|Hn].
  - exact (agree_cross_once i l src Ha (Hk src Hin)).
  - exact (monitor_cross_once_unconnected i l src Hm Hn).
Qed.

(* Two connections of B: A's datagram reaches only the newer (active) one; when that closes,
   the older one is promoted and receives the next datagram. *)
Example duplicate_connections :
  let s := run wcfg [ESpawn idA 2; EInsert 0; ESpawn idB 2; EInsert 1; ESpawn idB 2; EInsert 2;
                     ERecv 0 (4 :: idB ++ [1; 9]); EWritePkt 2; EWritePkt 1;
                     EClose 2; EUnregister 2; EDrop 2;
                     ERecv 0 (5 :: idB ++ [3; 0; 7; 8; 8]); EWritePkt 1; EWritePkt 2] in
  map (fun c => filter is_od (map obs_frame (c_out c))) (conns s) =
  [[]; [OD idA 3 (Some 7) [8; 8]]; [OD idA 1 None [9]]].
Proof. vm_compute. reflexivity. Qed.

(* with capacity 4 the fifth undelivered datagram is dropped *)
Example queue_full_drops :
  let s := run wcfg [ESpawn idA 2; EInsert 0; ESpawn idB 2; EInsert 1;
                     ERecv 0 (4 :: idB ++ [0; 1]); ERecv 0 (4 :: idB ++ [0; 2]); ERecv 0 (4 :: idB ++ [0; 3]);
                     ERecv 0 (4 :: idB ++ [0; 4]); ERecv 0 (4 :: idB ++ [0; 5])] in
  option_map (fun c => map (fun p => d_data (p_dg p)) (c_pq c)) (getc s 1) = Some [[1]; [2]; [3]; [4]].
Proof. vm_compute. reflexivity. Qed.
