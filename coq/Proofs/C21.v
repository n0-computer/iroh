(* C21 — RemoteMap / RemoteStateActor.  [Inv] is [rinv] for every remote (handled ++ waiting =
   issued, at most one task) and [pcinv] for the owner.  [rinv s r] unfolds to [rinv_of] of r's
   record, the message in flight to r and the request counter; an event is a lemma about that
   one record ([rinv_of_begin], [rinv_of_actor], [rinv_of_join]), carried to the state by
   [Inv_touch]. *)
From V Require Import Lib.Base Lib.Lists Lib.Trace Model.C21.
From Coq Require Import Sorted.
From V Require Import Lib.LiaBool.
Import C21.
Open Scope N_scope.

Lemma reqs_app l1 l2 : reqs (l1 ++ l2) = reqs l1 ++ reqs l2.
Proof. unfold reqs. apply flat_map_app. Qed.

Lemma msg_eqb_eq a b : msg_eqb a b = true -> a = b.
Proof. destruct a, b; cbn; try discriminate; auto. intros H. apply N.eqb_eq in H. now subst. Qed.
Lemma msg_eqb_refl a : msg_eqb a a = true.
Proof. destruct a; cbn; auto. apply N.eqb_refl. Qed.
Lemma msgs_eqb_eq a b : msgs_eqb a b = true -> a = b.
Proof. apply list_eqb_eq. apply msg_eqb_eq. Qed.
Lemma msgs_eqb_refl a : msgs_eqb a a = true.
Proof. apply list_eqb_refl, msg_eqb_refl. Qed.
Lemma nlist_eqb_iff a b : nlist_eqb a b = true <-> a = b.
Proof. apply list_eqb_iff, N.eqb_eq. Qed.

Lemma short_cases {A} (l : list A) : (length l <= 1)%nat -> l = [] \/ exists a, l = [a].
Proof. destruct l as [|a [|b l]]; cbn; intros H; [auto | eauto | lia]. Qed.

Definition rinv (s : st) (r : N) : Prop :=
  hist (rs s r) ++ pending s r = issued (rs s r) /\
  (length (acts (rs s r)) <= 1)%nat /\
  (sender (rs s r) = true <-> acts (rs s r) <> []) /\
  (forall a, In a (acts (rs s r)) -> ph a <> ARun -> initm a = []) /\
  (forall n, In n (issued (rs s r)) -> n < nextn s) /\
  StronglySorted N.lt (issued (rs s r)).

(* [rinv s r] clause by clause, with [pending s r] unfolded.  The two are tied by conversion
   only: [rinv_frame] and [Inv_touch] pass from one to the other by [change]. *)
Definition rinv_of (x : rstate) (fl : list msg) (nx : N) : Prop :=
  hist x ++ reqs (flat_map amsgs (acts x) ++ fl) = issued x /\
  (length (acts x) <= 1)%nat /\
  (sender x = true <-> acts x <> []) /\
  (forall a, In a (acts x) -> ph a <> ARun -> initm a = []) /\
  (forall n, In n (issued x) -> n < nx) /\
  StronglySorted N.lt (issued x).

Definition pcinv (s : st) : Prop :=
  match pc s with
  | OReserved r m => exists a, acts (rs s r) = [a] /\ is_done a = false
  | _ => True
  end.

Definition Inv (s : st) : Prop := (forall r, rinv s r) /\ pcinv s.

Lemma inv_init : Inv init.
Proof.
  split; [|exact I]. intros r. unfold rinv; cbn.
  split; [reflexivity|]. split; [lia|]. split; [split; [discriminate | intros H; now contradiction H]|].
  split; [intros a []|]. split; [intros n []|]. constructor.
Qed.

Lemma rinv_of_mono x fl nx nx' : nx <= nx' -> rinv_of x fl nx -> rinv_of x fl nx'.
Proof.
  intros H (A & B & C & D & E & F). repeat split; auto; try apply C.
  intros n Hn. apply E in Hn. lia.
Qed.

Lemma rinv_frame s s' r :
  rs s' r = rs s r -> inflight s' r = inflight s r -> nextn s <= nextn s' ->
  rinv s r -> rinv s' r.
Proof.
  intros E1 E2 E3. change (rinv s' r) with (rinv_of (rs s' r) (inflight s' r) (nextn s')).
  rewrite E1, E2. now apply rinv_of_mono.
Qed.

Lemma rinv_other s s' r r' :
  r' <> r -> rs s' r' = rs s r' -> inflight s' r' = inflight s r' -> nextn s <= nextn s' ->
  rinv s r' -> rinv s' r'.
Proof. intros _. apply rinv_frame. Qed.

Lemma Inv_frame s s' :
  (forall r, rs s' r = rs s r) -> (forall r, inflight s' r = inflight s r) ->
  nextn s <= nextn s' -> pcinv s' -> (forall r, rinv s r) -> Inv s'.
Proof. intros E1 E2 E3 HP HR. split; [|exact HP]. intros r. now apply (rinv_frame s). Qed.

Lemma Inv_touch s s' r x' :
  (forall r, rinv s r) ->
  (forall r', rs s' r' = if r' =? r then x' else rs s r') ->
  (forall r', r' <> r -> inflight s' r' = inflight s r') ->
  nextn s <= nextn s' ->
  rinv_of x' (inflight s' r) (nextn s') -> pcinv s' -> Inv s'.
Proof.
  intros HR Ers Efl Hn Hx HP. split; [|exact HP]. intros r'.
  change (rinv_of (rs s' r') (inflight s' r') (nextn s')). rewrite Ers.
  destruct (N.eqb_spec r' r) as [->|Hne]; [exact Hx|].
  rewrite (Efl r' Hne). apply (rinv_of_mono _ _ _ _ Hn), HR.
Qed.

Definition hlist (h : option N) : list N := match h with Some n => [n] | None => [] end.

(* the only task a becomes f a, handling request h if any; what was queued or in flight
   stays, in order *)
Lemma rinv_of_actor x a f h fl fl' nx :
  rinv_of x fl nx -> acts x = [a] ->
  reqs (amsgs a ++ fl) = hlist h ++ reqs (amsgs (f a) ++ fl') ->
  (ph (f a) <> ARun -> initm (f a) = []) ->
  rinv_of (mkR (sender x) (upd_last f (acts x))
               (match h with Some n => hist x ++ [n] | None => hist x end) (issued x)) fl' nx.
Proof.
  intros (A & B & C & D & E & F) Ea Hq Hi. unfold rinv_of. rewrite Ea in *.
  cbn [upd_last acts hist issued sender flat_map] in *. rewrite app_nil_r in *.
  split.
  { destruct h; cbn [hlist app] in Hq; rewrite <- ?app_assoc; cbn [app]; now rewrite <- Hq. }
  split; [exact B|].
  split; [split; [discriminate|intros _; apply C; discriminate]|].
  split; [|split; assumption]. intros y [<-|[]]. exact Hi.
Qed.

Lemma bound_snoc (l : list N) n :
  (forall x, In x l -> x < n) -> forall x, In x (l ++ [n]) -> x < n + 1.
Proof. intros E x [Hx|[<-|[]]]%in_app_iff; [apply E in Hx|]; lia. Qed.

(* send_to_actor begins: an actor is started if there is no sender, request nx is in flight *)
Lemma rinv_of_begin x fl nx :
  rinv_of x fl nx -> fl = [] ->
  let x1 := if negb (sender x) then start x [] else x in
  rinv_of (mkR (sender x1) (acts x1) (hist x1) (issued x1 ++ [nx])) [MReq nx] (nx + 1).
Proof.
  intros (A & B & C & D & E & F) ->. rewrite app_nil_r in A. cbv zeta.
  destruct (sender x) eqn:Sd; cbn [negb start sender acts hist issued]; unfold rinv_of;
    cbn [sender acts hist issued].
  - split; [rewrite reqs_app; cbn [reqs flat_map app]; now rewrite app_assoc, A|].
    split; [exact B|]. split; [now rewrite Sd|]. split; [exact D|].
    split; [now apply bound_snoc|now apply sorted_snoc].
  - assert (acts x = []) as Ha.
    { destruct (acts x) eqn:Ea; auto. enough (false = true) by discriminate. apply C. discriminate. }
    rewrite Ha in *. cbn in A. rewrite app_nil_r in A. cbn.
    split; [now rewrite A|]. split; [lia|]. split; [split; [discriminate|reflexivity]|].
    split; [intros a [<-|[]] _; reflexivity|].
    split; [now apply bound_snoc|now apply sorted_snoc].
Qed.

(* the finished task with leftover l is joined; l' goes to a new actor, the sender goes if
   l' is empty *)
Lemma rinv_of_join x a l l' fl fl' nx :
  rinv_of x fl nx -> acts x = [a] -> ph a = ADone l -> reqs (l ++ fl) = reqs (l' ++ fl') ->
  rinv_of (match l' with
           | [] => mkR false (acts (set_acts x [])) (hist (set_acts x [])) (issued (set_acts x []))
           | _ => start (set_acts x []) l'
           end) fl' nx.
Proof.
  intros (A & B & C & D & E & F) Ea Pa Hq. rewrite Ea in A. cbn [flat_map] in A.
  unfold amsgs in A. rewrite Pa, app_nil_r, Hq in A.
  destruct l' as [|m0 l0]; unfold rinv_of; cbn [set_acts start acts hist issued sender app flat_map].
  - split; [exact A|]. split; [cbn; lia|]. split; [split; [discriminate|intros X; now contradiction X]|].
    split; [intros ? []|split; assumption].
  - unfold amsgs. cbn [new_actor ph initm inbox]. rewrite !app_nil_r.
    split; [exact A|]. split; [cbn; lia|]. split; [split; [discriminate|reflexivity]|].
    split; [|split; assumption]. intros a' [<-|[]] Hph. cbn in Hph. congruence.
Qed.

Lemma inv_begin s r n started :
  Inv s -> enabled_ev s (EBegin r n started) = true -> Inv (apply s (EBegin r n started)).
Proof.
  intros [HR HP] Hen. cbn [enabled_ev] in Hen. destruct (pc s) eqn:Hpc; try discriminate.
  apply andb_prop in Hen as [->%N.eqb_eq ->%eqb_prop].
  eapply (Inv_touch s _ r); [exact HR|reflexivity|..].
  - intros r' Hne. unfold inflight. cbn [apply pc]. now rewrite Hpc, (proj2 (N.eqb_neq _ _) (not_eq_sym Hne)).
  - apply N.le_add_r.
  - unfold inflight at 1. cbn [apply pc nextn]. rewrite N.eqb_refl.
    apply (rinv_of_begin _ _ _ (HR r)). unfold inflight. now rewrite Hpc.
  - exact I.
Qed.

Lemma live_single s r p :
  rinv s r -> live_is s r p = true ->
  exists a, acts (rs s r) = [a] /\ p a = true /\ (ph a <> ARun -> initm a = []).
Proof.
  intros (_ & B & _ & D & _) H. unfold live_is in H.
  destruct (short_cases _ B) as [E0 | [a E0]]; rewrite E0 in *; [discriminate|].
  exists a. repeat split; auto. apply D. now left.
Qed.

Lemma inv_reserve s ok :
  Inv s -> enabled_ev s (EReserve ok) = true -> Inv (apply s (EReserve ok)).
Proof.
  intros [HR HP] Hen. cbn [enabled_ev] in Hen.
  destruct (pc s) as [|r m|r m|r m] eqn:Hpc; try discriminate.
  destruct (live_single _ _ _ (HR r) Hen) as (a & E0 & [Hok _]%andb_prop & Hi). apply eqb_prop in Hok.
  destruct ok; cbn [apply]; rewrite Hpc.
  - (* a permit: the message stays in flight *)
    eapply (Inv_touch s _ r); [exact HR|reflexivity|..].
    + intros r' _. unfold inflight. cbn [set_pc pc]. now rewrite Hpc.
    + apply N.le_refl.
    + apply (rinv_of_actor _ a _ None _ _ _ (HR r) E0); [|exact Hi].
      unfold inflight. cbn [set_pc pc]. now rewrite Hpc.
    + unfold pcinv. cbn [set_pc pc set_r rs]. rewrite N.eqb_refl. cbn [set_acts acts]. rewrite E0.
      eexists. split; [reflexivity|]. unfold is_done, closed in *. cbn.
      symmetry in Hok. apply negb_true_iff in Hok. destruct (ph a); auto; discriminate.
  - apply (Inv_frame s); auto; try reflexivity.
    intros r'. unfold inflight. cbn [set_pc pc]. now rewrite Hpc.
Qed.

Lemma inv_push s :
  Inv s -> enabled_ev s EPush = true -> Inv (apply s EPush).
Proof.
  intros [HR HP] Hen. cbn [enabled_ev] in Hen.
  destruct (pc s) as [|r m|r m|r m] eqn:Hpc; try discriminate.
  unfold pcinv in HP. rewrite Hpc in HP. destruct HP as (a & Ea & Hd).
  cbn [apply]. rewrite Hpc.
  eapply (Inv_touch s _ r); [exact HR|reflexivity|..].
  - intros r' Hne. unfold inflight. cbn [set_pc pc]. now rewrite Hpc, (proj2 (N.eqb_neq _ _) (not_eq_sym Hne)).
  - apply N.le_refl.
  - (* the message moves from the owner's hands to the end of the inbox *)
    apply (rinv_of_actor _ a _ None _ _ _ (HR r) Ea).
    + unfold inflight. cbn [set_pc pc]. rewrite Hpc, N.eqb_refl.
      clear -Hd. unfold amsgs, is_done in *. cbn [ph initm inbox hlist app].
      destruct (ph a); try discriminate; now rewrite !app_nil_r, <- ?app_assoc.
    + destruct (HR r) as (_ & _ & _ & D & _). intros Hp. cbn in Hp |- *. apply D; [rewrite Ea; now left|exact Hp].
  - exact I.
Qed.

Lemma inv_join s r l l' :
  Inv s -> enabled_ev s (EJoin r l l') = true -> Inv (apply s (EJoin r l l')).
Proof.
  intros [HR HP] Hen. cbn [enabled_ev] in Hen.
  destruct (HR r) as (_ & B & _).
  destruct (short_cases _ B) as [E0 | [a E0]]; rewrite E0 in Hen; cbn in Hen; [discriminate|].
  destruct (ph a) as [| | |lf] eqn:Pa; try discriminate.
  apply andb_prop in Hen as [->%msgs_eqb_eq Hl'].
  eapply (Inv_touch s _ r); [exact HR|reflexivity|..].
  - intros r' Hne. unfold inflight. cbn [apply set_pc pc].
    destruct (pc s) as [|r1 m1|r1 m1|r1 m1]; auto.
    destruct (N.eqb_spec r1 r) as [->|]; [|reflexivity].
    now rewrite (proj2 (N.eqb_neq _ _) (not_eq_sym Hne)).
  - apply N.le_refl.
  - cbn [apply set_pc set_r nextn]. rewrite E0. cbn [take_done]. rewrite Pa.
    apply (rinv_of_join _ a l l' _ _ _ (HR r) E0 Pa).
    (* the new actor inherits the leftover, and the message of the send that failed *)
    unfold inflight. cbn [pc].
    destruct (pc s) as [|r1 m1|r1 m1|r1 m1]; try discriminate;
      apply msgs_eqb_eq in Hl'; subst l'; [reflexivity|].
    destruct (r1 =? r) eqn:E1; cbn [set_pc pc]; rewrite ?E1, ?app_nil_r; reflexivity.
  - unfold pcinv. cbn [apply set_pc pc].
    destruct (pc s) as [|r1 m1|r1 m1|r1 m1]; try discriminate; [exact I|].
    destruct (r1 =? r); exact I.
Qed.

Lemma pcinv_unreserved s : (forall r m, pc s <> OReserved r m) -> pcinv s.
Proof. intros H. unfold pcinv. destruct (pc s) as [| |r m|]; auto. now destruct (H r m). Qed.

Lemma inv_actor_upd s s' r a f h :
  Inv s -> acts (rs s r) = [a] -> (forall r m, pc s <> OReserved r m) ->
  (forall r', rs s' r' = if r' =? r
     then mkR (sender (rs s r)) (upd_last f (acts (rs s r)))
              (match h with Some n => hist (rs s r) ++ [n] | None => hist (rs s r) end)
              (issued (rs s r))
     else rs s r') ->
  pc s' = pc s -> nextn s' = nextn s ->
  reqs (amsgs a) = hlist h ++ reqs (amsgs (f a)) ->
  (ph (f a) <> ARun -> initm (f a) = []) ->
  Inv s'.
Proof.
  intros [HR HP] Ea NR Ers Ep En Hq Hi.
  assert (forall r', inflight s' r' = inflight s r') as Efl by (intros; unfold inflight; now rewrite Ep).
  apply (Inv_touch s s' r _ HR Ers); auto.
  - rewrite En. apply N.le_refl.
  - rewrite Efl, En. apply (rinv_of_actor _ a f h (inflight s r)); auto; [apply HR|].
    now rewrite !reqs_app, Hq, app_assoc.
  - apply pcinv_unreserved. now rewrite Ep.
Qed.

Lemma not_reserved s e :
  enabled AtomicSend s e = true -> e <> EPush -> forall r m, pc s <> OReserved r m.
Proof.
  intros En Hne r m Hpc. unfold enabled in En. rewrite Hpc in En. destruct e; try discriminate. congruence.
Qed.

Lemma enabled_ev_of md s e : enabled md s e = true -> enabled_ev s e = true.
Proof. unfold enabled. destruct md; [|auto]. destruct (pc s); auto. destruct e; auto; discriminate. Qed.

Lemma step_some md s e s' : step md s e = Some s' -> enabled md s e = true /\ s' = apply s e.
Proof. unfold step. destruct (enabled md s e); [|discriminate]. intros [= <-]. auto. Qed.

Lemma inv_step s e s' : Inv s -> step AtomicSend s e = Some s' -> Inv s'.
Proof.
  intros HI [En ->]%step_some.
  pose proof (enabled_ev_of _ _ _ En) as Hen. pose proof HI as [HR HP].
  pose proof (not_reserved s e En) as NR.
  (* the owner's four events have a lemma each; the next five (EForeign, EHandle, EBreak, EClose,
     EReturn) turn the one task a of r into some f a while the owner holds no permit, which is
     [inv_actor_upd]; EAnswered and EEnd touch no remote *)
  destruct e as [r n started|ok| |r l l'|r res|r m|r|r|r l|n|].
  - now apply inv_begin.
  - now apply inv_reserve.
  - now apply inv_push.
  - now apply inv_join.
  - cbn [enabled_ev] in Hen. apply N.eqb_eq in Hen.
    cbn [apply]. destruct (res =? 0) eqn:R0; [|assumption].
    apply N.eqb_eq in R0. rewrite R0 in Hen.
    destruct (HR r) as (_ & B & _ & D & _).
    unfold foreign_result in Hen.
    destruct (sender (rs s r)) eqn:Sd; cbn in Hen; [|discriminate].
    destruct (short_cases _ B) as [E0 | [a E0]]; rewrite E0 in Hen; cbn in Hen; [discriminate|].
    destruct (closed a) eqn:Ca; [discriminate|].
    eapply (inv_actor_upd s _ r a _ None HI E0 (NR ltac:(discriminate))); try reflexivity.
    + clear -Ca. unfold amsgs, closed in *. cbn.
      destruct (ph a); try discriminate; rewrite !reqs_app; cbn; now rewrite app_nil_r.
    + cbn. intros Hp. apply D; [rewrite E0; now left | assumption].
  - destruct (live_single _ _ _ (HR r) Hen) as (a & E0 & [Hrun Hm]%andb_prop & D).
    unfold is_run in Hrun.
    destruct (ph a) eqn:Pa; try discriminate.
    destruct (next_msg a) as [m'|] eqn:Nm; [|discriminate]. apply msg_eqb_eq in Hm. subst m'.
    assert (Hsp : initm a ++ inbox a = m :: (initm (pop_msg a) ++ inbox (pop_msg a)) /\ ph (pop_msg a) = ARun).
    { unfold next_msg, pop_msg in *. destruct (initm a) as [|i0 il] eqn:Ei.
      - destruct (inbox a) as [|b0 bl]; [discriminate|]. cbn in Nm. injection Nm as ->. cbn. auto.
      - injection Nm as ->. cbn. auto. }
    destruct Hsp as [Hsp Hph'].
    destruct m as [n|];
      [apply (inv_actor_upd s _ r a pop_msg (Some n) HI E0 (NR ltac:(discriminate)))
      |apply (inv_actor_upd s _ r a pop_msg None HI E0 (NR ltac:(discriminate)))];
      try reflexivity; try congruence; unfold amsgs; now rewrite Pa, Hph', Hsp.
  - destruct (live_single _ _ _ (HR r) Hen) as (a & E0 & [Hrun Hi]%andb_prop & D).
    unfold is_run in Hrun.
    destruct (ph a) eqn:Pa; try discriminate. destruct (initm a) eqn:Ia; [|discriminate].
    apply (inv_actor_upd s _ r a (set_ph ABroke) None HI E0 (NR ltac:(discriminate))); try reflexivity.
    + unfold amsgs. cbn. now rewrite Pa.
    + intros _. exact Ia.
  - destruct (live_single _ _ _ (HR r) Hen) as (a & E0 & Hb & D).
    unfold is_broke in Hb. destruct (ph a) eqn:Pa; try discriminate.
    apply (inv_actor_upd s _ r a (set_ph AClosed) None HI E0 (NR ltac:(discriminate))); try reflexivity.
    + unfold amsgs. cbn. now rewrite Pa.
    + cbn. intros _. apply D. congruence.
  - destruct (live_single _ _ _ (HR r) Hen) as (a & E0 & [Hc Hl]%andb_prop & D).
    unfold is_closed_ph in Hc.
    destruct (ph a) eqn:Pa; try discriminate. apply msgs_eqb_eq in Hl. subst l.
    assert (Ia : initm a = []) by (apply D; congruence).
    eapply (inv_actor_upd s _ r a _ None HI E0 (NR ltac:(discriminate))); try reflexivity.
    + unfold amsgs. cbn. now rewrite Pa, Ia.
    + intros _. exact Ia.
  - apply (Inv_frame s); auto; reflexivity.
  - assumption.
Qed.

Lemma steps_orun md tr : forall s, steps md s tr = orun (step md) s tr.
Proof. induction tr as [|e tr IH]; cbn; intros s; [reflexivity|]. now destruct (step md s e). Qed.

Lemma inv_steps tr s s' : Inv s -> steps AtomicSend s tr = Some s' -> Inv s'.
Proof. rewrite steps_orun. apply orun_inv. exact inv_step. Qed.

Lemma reachable_rinv tr s r : steps AtomicSend init tr = Some s -> rinv s r.
Proof. intros H. now destruct (inv_steps _ _ _ inv_init H) as [HR _]. Qed.

Lemma no_request_lost tr s r :
  steps AtomicSend init tr = Some s ->
  hist (rs s r) ++ pending s r = issued (rs s r) /\ NoDup (issued (rs s r)).
Proof.
  intros (A & _ & _ & _ & _ & F)%(reachable_rinv _ _ r). split; auto. now apply sorted_NoDup.
Qed.

Lemma request_in_one_place tr s r n :
  steps AtomicSend init tr = Some s -> In n (issued (rs s r)) ->
  (In n (hist (rs s r)) /\ ~ In n (pending s r)) \/ (~ In n (hist (rs s r)) /\ In n (pending s r)).
Proof.
  intros H Hin. destruct (no_request_lost _ _ r H) as [A Hnd].
  rewrite <- A in Hin, Hnd. apply in_app_iff in Hin.
  apply NoDup_app_iff in Hnd as (_ & _ & D). specialize (D n). clear -Hin D. tauto.
Qed.

Lemma at_most_one_live tr s r :
  steps AtomicSend init tr = Some s -> (length (acts (rs s r)) <= 1)%nat.
Proof.
  now intros (_ & B & _)%(reachable_rinv _ _ r).
Qed.

Lemma per_remote_fifo tr s r :
  steps AtomicSend init tr = Some s ->
  (exists rest, issued (rs s r) = hist (rs s r) ++ rest) /\ StronglySorted N.lt (issued (rs s r)).
Proof.
  intros (A & _ & _ & _ & _ & F)%(reachable_rinv _ _ r). split; auto. exists (pending s r). now rewrite A.
Qed.

(* the first two clauses of [rinv], for the remotes the monitor enumerates *)
Definition GoodP (s : st) : Prop :=
  forall r, In r remotes ->
    hist (rs s r) ++ pending s r = issued (rs s r) /\ (length (acts (rs s r)) <= 1)%nat.

Fixpoint AllGood (s : st) (tr : list ev) : Prop :=
  GoodP s /\
  match tr with
  | [] => True
  | e :: tr' => (e = EEnd -> all_answered s = true) /\ AllGood (apply s e) tr'
  end.

Lemma good_b_spec s : good_b s = true <-> GoodP s.
Proof.
  apply forallb_iff. intros r. apply andb_iff; [apply nlist_eqb_iff|apply Nat.leb_le].
Qed.

Lemma all_states_spec tr : forall s, all_states s tr = true <-> AllGood s tr.
Proof.
  induction tr as [|e tr IH]; intros s; cbn [all_states AllGood].
  - apply andb_iff; [apply good_b_spec|apply true_iff].
  - apply andb_iff; [apply good_b_spec|]. apply andb_iff; [|apply IH]. split.
    + intros H ->. exact H.
    + intros H. destruct e; try reflexivity. exact (H eq_refl).
Qed.

Lemma monitor_spec i tr : monitor i (Ok tr) = true <-> AllGood init tr.
Proof. unfold monitor. apply all_states_spec. Qed.

Lemma good_of_inv s : Inv s -> GoodP s.
Proof. intros [HR _] r _. destruct (HR r) as (A & B & _). auto. Qed.

Lemma all_good_of_run tr : forall s s',
  Inv s -> steps AtomicSend s tr = Some s' -> AllGood s tr.
Proof.
  induction tr as [|e tr IH]; cbn [AllGood steps]; intros s s' HI H.
  - split; auto. now apply good_of_inv.
  - split; [now apply good_of_inv|].
    destruct (step AtomicSend s e) as [s1|] eqn:E; [|discriminate].
    pose proof (inv_step _ _ _ HI E) as HI1. apply step_some in E as [En ->].
    split.
    + intros ->. exact (enabled_ev_of _ _ _ En).
    + eapply IH; eassumption.
Qed.

Lemma steps_app md a s b :
  steps md s (a ++ b) = match steps md s a with Some s' => steps md s' b | None => None end.
Proof. rewrite !steps_orun, orun_app. destruct (orun (step md) s a); [apply eq_sym, steps_orun|reflexivity]. Qed.

Lemma keep_enabled_run md l : forall s l' s',
  keep_enabled md s l = (l', s') -> steps md s l' = Some s'.
Proof.
  induction l as [|e l IH]; cbn; intros s l' s' H.
  - injection H as <- <-. reflexivity.
  - destruct (step md s e) as [s1|] eqn:E.
    + destruct (keep_enabled md s1 l) as [r s2] eqn:K. injection H as <- <-.
      cbn. rewrite E. eapply IH; eauto.
    + injection H as <- <-. reflexivity.
Qed.

Lemma exec_all_run md cs : forall s, exists s', steps md s (exec_all md s cs) = Some s'.
Proof.
  induction cs as [|c cs IH]; cbn; intros s; [eauto|].
  destruct (keep_enabled md s (exec s c)) as [l s1] eqn:K.
  apply keep_enabled_run in K. rewrite steps_app, K. apply IH.
Qed.

Lemma model_trace_run i : exists s', steps code_mode init (model_trace i) = Some s'.
Proof. apply exec_all_run. Qed.

Lemma model_monitor i : monitor i (model i) = true.
Proof.
  unfold model. apply monitor_spec. destruct (model_trace_run i) as [s' H].
  eapply all_good_of_run; [apply inv_init | exact H].
Qed.

Lemma model_agrees i : agree i (model i) = true.
Proof. unfold agree, model. destruct (model_trace_run i) as [s' H]. now rewrite H. Qed.

(* the send split in two (permit, push) with actor steps in between loses a request *)
Definition lost_trace : list ev :=
  [EBegin 0 1 true; EReserve true; EBreak 0; EClose 0; EReturn 0 []; EPush; EJoin 0 [] []].

Lemma split_send_refuted :
  exists tr s, steps SplitSend init tr = Some s /\
    issued (rs s 0) = [1] /\ hist (rs s 0) = [] /\ pending s 0 = [] /\
    acts (rs s 0) = [] /\ pc s = OIdle /\ sender (rs s 0) = false.
Proof.
  exists lost_trace. eexists. split; [vm_compute; reflexivity|]. vm_compute. repeat split; reflexivity.
Qed.

(* non-vacuity: with the send atomic the request waits in the leftover *)
Example atomic_keeps_request :
  exists s, steps AtomicSend init
    [EBegin 0 1 true; EReserve true; EPush; EHandle 0 (MReq 1); EBreak 0;
     EBegin 0 2 false; EReserve true; EPush; EClose 0; EReturn 0 [MReq 2];
     EJoin 0 [MReq 2] [MReq 2]; EHandle 0 (MReq 2)] = Some s /\
    hist (rs s 0) = [1; 2] /\ issued (rs s 0) = [1; 2].
Proof. eexists. split; [vm_compute; reflexivity|]. vm_compute. split; reflexivity. Qed.

Example lost_trace_not_atomic : steps AtomicSend init lost_trace = None.
Proof. vm_compute. reflexivity. Qed.

Example model_trace_example :
  model_trace [CQ 0; CW; CT; CQ 0; CX 0; CY 0; CC; CW] =
  [EBegin 0 1 true; EReserve true; EPush; EHandle 0 (MReq 1); EBreak 0;
   EBegin 0 2 false; EReserve true; EPush; EClose 0; EReturn 0 [MReq 2];
   EJoin 0 [MReq 2] [MReq 2]; EHandle 0 (MReq 2)].
Proof. vm_compute. reflexivity. Qed.
