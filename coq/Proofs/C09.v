(* C09 — Bucket / RateLimited.  On a well-formed bucket ([wfp]) update_state and consume are the
   closed forms [upd], [cons_bucket] and [cons_result], so nothing panics; for [new], [from_config],
   [poll] and the two run functions, that and what they return is one [sat] statement each.  The
   rate bound rests on the invariants [tinv] (refill clock) and [finv] (fill); [lim_match] and
   [res_match] relate a reader state to the states of the two reader monitors and are kept along
   every [reader_run]. *)
From V Require Import Lib.Base Lib.MachineInt Lib.Lists Model.C09.
From V Require Import Lib.LiaBool.
Import C09.
Local Open Scope Z_scope.

Lemma ms_bounds d : ms d * NS_PER_MS <= d < ms d * NS_PER_MS + NS_PER_MS.
Proof.
  unfold ms, NS_PER_MS.
  pose proof (Z.div_mod d 1000000 ltac:(lia)).
  pose proof (Z.mod_pos_bound d 1000000 ltac:(lia)). lia.
Qed.

Lemma ms_nonneg d : 0 <= d -> 0 <= ms d.
Proof. intros; unfold ms, NS_PER_MS. apply Z.div_pos; lia. Qed.

Lemma ms_mono a b : a <= b -> ms a <= ms b.
Proof. intros; unfold ms, NS_PER_MS. apply Z.div_le_mono; lia. Qed.

Lemma fired_le d now : fired d now = true -> d <= now.
Proof.
  intros H%Z.leb_le. fold (ms (d + 999999)) (ms now) in H.
  pose proof (ms_bounds (d + 999999)). pose proof (ms_bounds now). unfold NS_PER_MS in *. lia.
Qed.

Lemma fired_mono d d' now : d <= d' -> fired d now = false -> fired d' now = false.
Proof.
  intros Hle H%Z.leb_gt. apply Z.leb_gt.
  eapply Z.lt_le_trans; [exact H|]. apply ms_mono. lia.
Qed.

Lemma as_u32_small z : 0 <= z < TWO32 -> as_u32 z = z.
Proof. intros; unfold as_u32. apply Z.mod_small; lia. Qed.

Lemma as_u32_range z : 0 <= as_u32 z < TWO32.
Proof. unfold as_u32, TWO32. apply Z.mod_pos_bound; lia. Qed.

Lemma as_u32_le z : 0 <= z -> as_u32 z <= z.
Proof. intros; unfold as_u32, TWO32. apply Z.mod_le; lia. Qed.

(* what lia is given of the i64 and u32 bounds, which stay folded *)
Lemma i64_order : I64_MIN = - I64_MAX - 1 /\ 0 < U32MAX < I64_MAX.
Proof. repeat split. Qed.

Lemma i64_sat_id z : I64_MIN <= z <= I64_MAX -> i64_sat z = z.
Proof. unfold i64_sat; lia. Qed.

Lemma i64_sat_ge z : z <= I64_MAX -> z <= i64_sat z.
Proof. unfold i64_sat. pose proof i64_order. lia. Qed.

Lemma i64_sat_min z : I64_MIN <= z -> i64_sat z = Z.min I64_MAX z.
Proof. unfold i64_sat. pose proof i64_order. lia. Qed.

(* structural well-formedness: enough for "no panic" *)
Definition wfp (b : bucket) : Prop :=
  0 < refill b /\ 1 <= ms (period b) <= U32MAX /\ 0 <= period b.

Lemma wfp_period_lt b : wfp b -> period b < TWO32 * NS_PER_MS.
Proof.
  intros (_ & H & _). pose proof (ms_bounds (period b)). unfold U32MAX, TWO32, NS_PER_MS in *. lia.
Qed.

Lemma wfp_pm b : wfp b -> as_u32 (ms (period b)) = ms (period b).
Proof. intros (_ & H & _). apply as_u32_small. unfold U32MAX, TWO32 in *; lia. Qed.

Lemma dur_mul_ok b k : wfp b -> 0 <= k < TWO32 -> (DUR_MAX <? period b * k) = false.
Proof.
  intros W Hk. pose proof (wfp_period_lt b W) as Hp. destruct W as (_ & _ & H0).
  (* the product is bounded factor by factor, and the two closed numbers are compared by
     evaluation: coqchk reduces a lia/nia certificate without the VM, and one over these
     numerals, unfolded, costs ten times this argument *)
  apply Z.ltb_ge. transitivity (TWO32 * NS_PER_MS * TWO32); [|discriminate].
  apply Z.mul_le_mono_nonneg; lia.
Qed.

Definition periods_of (b : bucket) (now : Z) : Z :=
  as_u32 (ms (Z.max 0 (now - last_fill b))) / as_u32 (ms (period b)).

Lemma periods_range b now : wfp b -> 0 <= periods_of b now < TWO32.
Proof.
  intros W. unfold periods_of. rewrite (wfp_pm b W). destruct W as (_ & H & _).
  pose proof (as_u32_range (ms (Z.max 0 (now - last_fill b)))) as R.
  split.
  - apply Z.div_pos; lia.
  - apply Z.div_lt_upper_bound; [lia|]. nia.
Qed.

Definition upd (b : bucket) (now : Z) : bucket :=
  let k := periods_of b now in
  if k =? 0 then b else
  mkB (Z.min (i64_sat (fill b + i64_sat (k * refill b))) (bmax b)) (bmax b)
      (last_fill b + period b * k) (period b) (refill b).

Lemma update_state_eq b now : wfp b -> update_state b now = Ok (upd b now).
Proof.
  intros W. unfold update_state, upd. fold (periods_of b now).
  rewrite (wfp_pm b W).
  pose proof W as (_ & H & _).
  destruct (ms (period b) =? 0) eqn:E; [lia|].
  destruct (periods_of b now =? 0) eqn:E2; [reflexivity|].
  rewrite (dur_mul_ok b _ W (periods_range b now W)). reflexivity.
Qed.

Lemma upd_period b now : period (upd b now) = period b.
Proof. unfold upd. now destruct (periods_of b now =? 0). Qed.

Lemma upd_refill b now : refill (upd b now) = refill b.
Proof. unfold upd. now destruct (periods_of b now =? 0). Qed.

Lemma upd_bmax b now : bmax (upd b now) = bmax b.
Proof. unfold upd. now destruct (periods_of b now =? 0). Qed.

Lemma upd_last_fill b now :
  last_fill (upd b now) = last_fill b + period b * periods_of b now.
Proof.
  unfold upd. destruct (periods_of b now =? 0) eqn:E; cbn [last_fill]; [|reflexivity].
  apply Z.eqb_eq in E. rewrite E. lia.
Qed.

Lemma upd_fill b now :
  fill (upd b now) =
  if periods_of b now =? 0 then fill b
  else Z.min (i64_sat (fill b + i64_sat (periods_of b now * refill b))) (bmax b).
Proof. unfold upd. destruct (periods_of b now =? 0); reflexivity. Qed.

Lemma upd_wfp b now : wfp b -> wfp (upd b now).
Proof. unfold wfp. now rewrite upd_period, upd_refill. Qed.

(* consume's [pn32], [b2] and second component; consume_eq ties the three to the model *)
Definition needed (f rf : Z) : Z :=
  let pn := i64_sat (Z.quot (i64_sat (- f)) rf + 1) in
  if (0 <=? pn) && (pn <=? U32MAX) then pn else U32MAX.

Definition cons_bucket (b : bucket) (now n : Z) : bucket :=
  let b1 := upd b now in
  mkB (i64_sat (fill b1 - Z.min n I64_MAX)) (bmax b1) (last_fill b1) (period b1) (refill b1).

Definition cons_result (b : bucket) (now n : Z) : option Z :=
  let b2 := cons_bucket b now n in
  if 0 <? fill b2 then None
  else Some (last_fill b2 + needed (fill b2) (refill b2) * period b2).

Lemma cons_period b now n : period (cons_bucket b now n) = period b.
Proof. apply upd_period. Qed.

Lemma cons_refill b now n : refill (cons_bucket b now n) = refill b.
Proof. apply upd_refill. Qed.

Lemma cons_bmax b now n : bmax (cons_bucket b now n) = bmax b.
Proof. apply upd_bmax. Qed.

Lemma cons_last_fill b now n : last_fill (cons_bucket b now n) = last_fill (upd b now).
Proof. reflexivity. Qed.

Lemma cons_bucket_wfp b now n : wfp b -> wfp (cons_bucket b now n).
Proof. unfold wfp. now rewrite cons_refill, cons_period. Qed.

Lemma needed_range f rf : 0 <= needed f rf <= U32MAX.
Proof.
  unfold needed.
  destruct ((0 <=? _) && (_ <=? U32MAX)) eqn:E; unfold U32MAX in *; lia.
Qed.

Lemma needed_eq f rf :
  f <= 0 -> 0 < rf -> needed f rf = Z.min (Z.min I64_MAX (- f) / rf + 1) U32MAX.
Proof.
  intros Hf Hr. unfold needed. pose proof i64_order as O.
  rewrite (i64_sat_min (- f)) by lia.
  set (m := Z.min I64_MAX (- f)).
  assert (Hm : 0 <= m <= I64_MAX) by (unfold m; lia).
  rewrite Z.quot_div_nonneg by lia.
  assert (0 <= m / rf <= m).
  { split; [apply Z.div_pos; lia|]. apply Z.div_le_upper_bound; nia. }
  rewrite i64_sat_min by lia.
  destruct ((0 <=? _) && (_ <=? U32MAX)) eqn:E; lia.
Qed.

Lemma consume_eq b now n :
  wfp b -> consume b now n = Ok (cons_bucket b now n, cons_result b now n).
Proof.
  intros W. unfold consume. rewrite (update_state_eq b now W).
  unfold cons_result, cons_bucket.
  pose proof (upd_wfp b now W) as W1. generalize dependent (upd b now). intros b1 W1.
  cbn [fill bmax last_fill period refill].
  generalize (i64_sat (fill b1 - Z.min n I64_MAX)). intros f.
  destruct (0 <? f); [reflexivity|].
  pose proof W1 as (Hr & _ & _).
  destruct (refill b1 =? 0) eqn:E0; [lia|].
  pose proof (needed_range f (refill b1)) as NR.
  (* the next line folds consume's [pn32] into k; [fold (needed ..)] does so too, at many times
     the price *)
  remember (needed f (refill b1)) as k eqn:Ek. unfold needed in Ek. rewrite <- Ek.
  rewrite Z.mul_comm, (dur_mul_ok b1 k W1) by (unfold U32MAX, TWO32 in *; lia).
  rewrite Z.mul_comm. reflexivity.
Qed.

Lemma cons_result_some b now n d :
  cons_result b now n = Some d ->
  fill (cons_bucket b now n) <= 0 /\
  d = last_fill (cons_bucket b now n) +
      needed (fill (cons_bucket b now n)) (refill (cons_bucket b now n)) * period (cons_bucket b now n).
Proof.
  unfold cons_result.
  destruct (Z.ltb_spec 0 (fill (cons_bucket b now n))) as [|Hf]; [discriminate|].
  intros H. split; [exact Hf|congruence].
Qed.

Lemma cons_result_none b now n :
  cons_result b now n = None -> 0 < fill (cons_bucket b now n).
Proof.
  unfold cons_result.
  destruct (Z.ltb_spec 0 (fill (cons_bucket b now n))) as [Hf|]; [intros _; exact Hf|discriminate].
Qed.

Lemma new_sat now mx bps per :
  0 <= per ->
  sat False (fun b => wfp b /\ fill b = mx /\ bmax b = mx /\ last_fill b = now /\ period b = per /\ 0 < mx)
      (new now mx bps per).
Proof.
  intros Hper. unfold new.
  destruct ((0 <? mx) && (0 <? bps) && (0 <? as_u32 (ms per)) && (ms per <=? U32MAX) &&
            (0 <? Z.quot (i64_sat (bps * as_i64 (ms per))) 1000)) eqn:E; [|exact I].
  unfold sat, wfp. cbn [fill bmax last_fill period refill].
  pose proof (ms_nonneg per Hper) as Hms.
  rewrite as_u32_small in E by (unfold U32MAX, TWO32 in *; lia).
  repeat split; lia.
Qed.

(* the period from_config gives every bucket *)
Definition PER100 : Z := 100 * NS_PER_MS.

(* all that is used of a configured bucket; the bound on bmax is for [finv] and needs the
   limits to be u32 *)
Lemma from_config_sat now c :
  sat False (fun ob => match ob with
                       | Some b => wfp b /\ fill b = bmax b /\ 0 < bmax b /\ last_fill b = now /\
                                   period b = PER100 /\ (wf_cfg c = true -> bmax b <= I64_MAX)
                       | None => True
                       end)
      (from_config now c).
Proof.
  unfold from_config. destruct c as [[bps burst]|]; [|exact I].
  eapply sat_bind; [apply new_sat; discriminate|].
  intros b (W & F & M & L & P & Hm). repeat split; try apply W; try lia; [exact P|].
  cbn [wf_cfg]. intros Hw. rewrite M.
  (* U32MAX < I64_MAX is all that is used of the two constants *)
  pose proof i64_order as O.
  destruct burst as [m|]; [lia|].
  assert (bps / 10 <= bps) by (apply Z.div_le_upper_bound; lia). lia.
Qed.

(* from_config_sat as Props/C09.v states it, case by case and without the bound *)
Lemma from_config_cases now c :
  (exists e, from_config now c = Err e) \/
  from_config now c = Ok None \/
  (exists b, from_config now c = Ok (Some b) /\ wfp b /\ fill b = bmax b /\ 0 < bmax b /\
             last_fill b = now /\ period b = PER100).
Proof.
  pose proof (from_config_sat now c) as S.
  destruct (from_config now c) as [[b|]|e|]; [|right; left; reflexivity|left; eauto|contradiction].
  destruct S as (W & F & Hm & L & P & _). right; right. eauto 7.
Qed.

Definition wfr (s : rl) : Prop := match bkt s with Some b => wfp b | None => True end.

(* poll's [s1], the head of poll_read: an unseen watch update replaces the bucket, or is dropped *)
Definition apply_pend (s : rl) (now : Z) : rl :=
  match pend s with
  | None => s
  | Some c =>
      match from_config now c with
      | Ok b => mkR b None None (limited s)
      | _ => mkR (bkt s) (refilled s) None (limited s)
      end
  end.

Lemma poll_split s now avail cap :
  poll s now avail cap = poll (apply_pend s now) now avail cap.
Proof.
  unfold apply_pend. destruct (pend s) as [c|] eqn:Ep; [|reflexivity].
  unfold poll at 1. rewrite Ep.
  pose proof (from_config_sat now c) as S. destruct (from_config now c); [reflexivity..|contradiction].
Qed.

Lemma apply_pend_seen s now : pend (apply_pend s now) = None.
Proof.
  unfold apply_pend. destruct (pend s) as [c|] eqn:Ep; [|exact Ep].
  now destruct (from_config now c).
Qed.

Lemma apply_pend_wfr s now : wfr s -> wfr (apply_pend s now).
Proof.
  intros W. unfold apply_pend. destruct (pend s) as [c|]; [|exact W].
  pose proof (from_config_sat now c) as S.
  destruct (from_config now c) as [[b|]|e|]; [apply S|exact I|exact W..].
Qed.

(* How a poll without unseen update ends: no limit; still asleep; awake but the inner reader
   has nothing; n bytes read and debited.  [k], the limited_tx counter, is left open: no
   property reads it. *)
Inductive poll_case (s : rl) (now avail cap : Z) : rl -> option Z -> Prop :=
| PollUnlimited :
    bkt s = None ->
    poll_case s now avail cap s (if avail =? 0 then None else Some (Z.min avail cap))
| PollAsleep b d :
    bkt s = Some b -> refilled s = Some d -> fired d now = false ->
    poll_case s now avail cap s None
| PollNoInput b :
    bkt s = Some b -> (forall d, refilled s = Some d -> fired d now = true) -> avail = 0 ->
    poll_case s now avail cap (mkR (Some b) None None (limited s)) None
| PollRead b k :
    bkt s = Some b -> (forall d, refilled s = Some d -> fired d now = true) -> avail <> 0 ->
    poll_case s now avail cap
      (mkR (Some (cons_bucket b now (Z.min avail cap))) (cons_result b now (Z.min avail cap)) None k)
      (Some (Z.min avail cap)).

Lemma poll_sat s now avail cap :
  wfr s -> pend s = None ->
  sat False (fun '(s', r) => pend s' = None /\ poll_case s now avail cap s' r) (poll s now avail cap).
Proof.
  intros W Hp. unfold poll. rewrite Hp. unfold wfr in W.
  destruct (bkt s) as [b|] eqn:Eb.
  2:{ split; [exact Hp|]. now apply PollUnlimited. }
  destruct (match refilled s with Some d => negb (fired d now) | None => false end) eqn:Ew.
  { destruct (refilled s) as [d|] eqn:Er; [|discriminate]. apply negb_true_iff in Ew.
    split; [exact Hp|]. now apply (PollAsleep _ _ _ _ b d). }
  assert (A : forall d, refilled s = Some d -> fired d now = true).
  { intros d Hd. rewrite Hd in Ew. now apply negb_false_iff. }
  destruct (Z.eqb_spec avail 0) as [Ea|Ea].
  { split; [reflexivity|]. now apply PollNoInput. }
  rewrite (consume_eq b now _ W).
  pose proof (fun k => PollRead s now avail cap b k Eb A Ea) as P.
  destruct (cons_result b now (Z.min avail cap)); (split; [reflexivity|apply P]).
Qed.

Lemma poll_case_wfr s now avail cap s' r : wfr s -> poll_case s now avail cap s' r -> wfr s'.
Proof.
  unfold wfr. intros W C.
  destruct C as [_|b d _ _ _|b Eb _ _|b k Eb _ _]; try rewrite Eb in W; try assumption.
  now apply cons_bucket_wfp.
Qed.

(* A successful run of the reader from a well-formed state, event by event.  Facts about runs
   are inductions over it: the heads of both lists are constructors, so the monitors compute. *)
Inductive reader_run : rl -> Z -> list ev -> list obs -> Prop :=
| RunEnd s now : reader_run s now [] []
| RunAdvance s now dt es os :
    reader_run s (now + dt) es os -> reader_run s now (Advance dt :: es) (ONone :: os)
| RunConsume s now n es os :
    reader_run s now es os -> reader_run s now (Consume n :: es) (ONone :: os)
| RunReconfig s now cf es os :
    reader_run (mkR (bkt s) (refilled s) (Some cf) (limited s)) now es os ->
    reader_run s now (Reconfig cf :: es) (ONone :: os)
| RunPoll s now a cap s' r es os :
    poll_case (apply_pend s now) now a cap s' r -> pend s' = None ->
    reader_run s' now es os -> reader_run s now (Poll a cap :: es) (OPoll r :: os).

Lemma run_reader_sat es : forall s now,
  wfr s -> sat False (fun '(os, _) => reader_run s now es os) (run_reader s now es).
Proof.
  induction es as [|e es IH]; intros s now W; cbn [run_reader]; [constructor|].
  destruct e as [dt|n|a c|cf].
  - eapply sat_bind; [exact (IH s (now + dt) W)|]. intros [os k] R. now constructor.
  - eapply sat_bind; [exact (IH s now W)|]. intros [os k] R. now constructor.
  - rewrite poll_split. pose proof (apply_pend_wfr s now W) as W1.
    eapply sat_bind; [exact (poll_sat _ now a c W1 (apply_pend_seen s now))|]. intros [s' r] (P' & C).
    eapply sat_bind; [exact (IH s' now (poll_case_wfr _ _ _ _ _ _ W1 C))|].
    intros [os k] R. now apply (RunPoll s now a c s' r).
  - eapply sat_bind; [exact (IH (mkR (bkt s) (refilled s) (Some cf) (limited s)) now W)|].
    intros [os k] R. now constructor.
Qed.

(* the period as update_state counts it: whole milliseconds *)
Definition pmns (b : bucket) : Z := ms (period b) * NS_PER_MS.

(* the refill clock: last_fill lies K periods after t0, and K millisecond-floored periods
   have elapsed *)
Definition tinv (b : bucket) (t0 K now : Z) : Prop :=
  wfp b /\ 0 <= K /\ last_fill b = t0 + K * period b /\ t0 + K * pmns b <= now.

Lemma pmns_bounds b : wfp b -> NS_PER_MS <= pmns b <= period b /\ period b < pmns b + NS_PER_MS.
Proof.
  intros (_ & H & _). unfold pmns. pose proof (ms_bounds (period b)). unfold NS_PER_MS in *. lia.
Qed.

Lemma upd_pmns b now : pmns (upd b now) = pmns b.
Proof. unfold pmns. now rewrite upd_period. Qed.

Lemma cons_pmns b now n : pmns (cons_bucket b now n) = pmns b.
Proof. unfold pmns. rewrite cons_period. reflexivity. Qed.

Lemma tinv_mono b t0 K now now' : tinv b t0 K now -> now <= now' -> tinv b t0 K now'.
Proof. intros (W & HK & HL & HN) Hle. repeat split; try apply W; lia. Qed.

(* credited periods never run ahead of real time *)
Lemma periods_time b now :
  wfp b -> periods_of b now * pmns b <= Z.max 0 (now - last_fill b).
Proof.
  intros W. unfold periods_of, pmns. rewrite (wfp_pm b W). destruct W as (_ & Hpm & _).
  pose proof (ms_bounds (Z.max 0 (now - last_fill b))) as Hb.
  set (el := ms (Z.max 0 (now - last_fill b))) in *.
  pose proof (as_u32_le el ltac:(apply ms_nonneg; lia)).
  pose proof (Z.mul_div_le (as_u32 el) (ms (period b)) ltac:(lia)).
  (* NS_PER_MS stays folded: both sides are multiples of it (see dur_mul_ok) *)
  rewrite Z.mul_assoc. apply Z.le_trans with (el * NS_PER_MS); [|lia].
  apply Z.mul_le_mono_nonneg_r; [discriminate|lia].
Qed.

Lemma upd_tinv b t0 K now :
  tinv b t0 K now -> tinv (upd b now) t0 (K + periods_of b now) now.
Proof.
  intros (W & HK & HL & HN).
  pose proof (periods_range b now W) as Hk.
  pose proof (pmns_bounds b W) as Hp.
  pose proof (periods_time b now W) as Ht.
  split; [apply upd_wfp; exact W|]. split; [lia|].
  rewrite upd_last_fill, upd_period, upd_pmns. split; [lia|].
  assert (K * pmns b <= K * period b) by (apply Z.mul_le_mono_nonneg_l; lia).
  nia.
Qed.

Lemma cons_bucket_tinv b t0 K now n :
  tinv b t0 K now -> tinv (cons_bucket b now n) t0 (K + periods_of b now) now.
Proof.
  (* tinv reads refill, period and last_fill only, and cons_bucket has those of upd *)
  intros T. apply upd_tinv in T. revert T. unfold tinv, wfp, pmns.
  now rewrite cons_refill, cons_period, cons_last_fill, upd_refill, upd_period.
Qed.

(* no stall.  2 * (now - t0): a period is below twice its millisecond floor *)
Lemma deadline_bound b t0 K now n d :
  tinv b t0 K now -> cons_result b now n = Some d ->
  d <= t0 + 2 * (now - t0) + U32MAX * period b.
Proof.
  intros T Hc. apply cons_result_some in Hc as [_ ->].
  pose proof (needed_range (fill (cons_bucket b now n)) (refill (cons_bucket b now n))) as NR.
  destruct (cons_bucket_tinv b t0 K now n T) as (_ & HK & -> & HN).
  rewrite cons_pmns in HN. rewrite cons_period.
  destruct T as (W & _). pose proof (pmns_bounds b W) as Hp. destruct W as (_ & _ & HP).
  set (K1 := K + periods_of b now) in *. set (pn := needed _ _) in *.
  assert (K1 * period b <= K1 * (2 * pmns b)) by (apply Z.mul_le_mono_nonneg_l; unfold NS_PER_MS in *; lia).
  assert (pn * period b <= U32MAX * period b) by (apply Z.mul_le_mono_nonneg_r; lia).
  lia.
Qed.

(* j = -f / rf + 1 is the least number of refills that makes an empty bucket positive: j do,
   j - 1 do not *)
Lemma first_refill_count f rf :
  0 < rf -> 0 < f + (- f / rf + 1) * rf /\ f + (- f / rf + 1 - 1) * rf <= 0.
Proof.
  intros Hr. pose proof (Z.mul_div_le (- f) rf Hr). pose proof (Z.mul_succ_div_gt (- f) rf Hr). lia.
Qed.

(* the deadline is the refill instant, on the bucket's own grid, at which the bucket turns
   positive, or earlier when the period count is clamped to u32::MAX *)
Lemma deadline_is_first_positive b now n d :
  wfp b -> cons_result b now n = Some d ->
  let b' := cons_bucket b now n in
  let j := (- fill b') / refill b' + 1 in
  fill b' <= 0 /\
  0 < fill b' + j * refill b' /\ fill b' + (j - 1) * refill b' <= 0 /\
  d <= last_fill b' + j * period b' /\
  (I64_MIN < fill b' -> j <= U32MAX -> d = last_fill b' + j * period b').
Proof.
  intros W Hc. cbv zeta. apply cons_result_some in Hc as [Hf ->].
  pose proof (cons_bucket_wfp b now n W) as (Hr & _ & HP).
  set (b' := cons_bucket b now n) in *.
  destruct (first_refill_count (fill b') (refill b') Hr) as [Hpos Hprev].
  rewrite (needed_eq _ _ Hf Hr).
  assert (Z.min I64_MAX (- fill b') / refill b' <= - fill b' / refill b')
    by (apply Z.div_le_mono; lia).
  repeat split; try assumption.
  - apply Z.add_le_mono_l, Z.mul_le_mono_nonneg_r; lia.
  - pose proof i64_order as O. intros Hmin Hj.
    rewrite (Z.min_r _ (- fill b')), Z.min_l by lia. reflexivity.
Qed.

(* Bucket mode has the one monitor, so it is proved along the run, inside the postcondition.
   The reader's runs are asked three things and get a relation of their own, [reader_run]. *)
Lemma run_bucket_sat es : forall b now,
  wfp b ->
  sat False (fun l => forall K, tinv b 0 K now -> forallb wf_ev es = true ->
                      mon_bucket (period b) now es l = true)
      (run_bucket b now es).
Proof.
  induction es as [|e es IH]; intros b now W; cbn [run_bucket]; [now intros K T Hwf|].
  destruct e as [dt|n|a c|c].
  - eapply sat_bind; [exact (IH b (now + dt) W)|].
    intros l Hl K T [He Hes]%andb_prop. cbn [wf_ev] in He.
    apply (Hl K); [eapply tinv_mono; [exact T|lia]|exact Hes].
  - rewrite (consume_eq b now n W).
    eapply sat_bind; [exact (IH _ now (cons_bucket_wfp b now n W))|].
    intros l Hl K T [_ Hes]%andb_prop. cbn [mon_bucket].
    specialize (Hl _ (cons_bucket_tinv b 0 K now n T) Hes). rewrite cons_period in Hl.
    destruct (cons_result b now n) as [d|] eqn:Ec; [|exact Hl].
    pose proof (deadline_bound b 0 K now n d T Ec). rewrite Hl, andb_true_r. lia.
  - eapply sat_bind; [exact (IH b now W)|]. intros l Hl K T [_ Hes]%andb_prop. exact (Hl K T Hes).
  - eapply sat_bind; [exact (IH b now W)|]. intros l Hl K T [_ Hes]%andb_prop. exact (Hl K T Hes).
Qed.

(* K periods credited so far, C bytes consumed so far *)
Definition finv (b : bucket) (K C : Z) : Prop :=
  0 < bmax b <= I64_MAX /\ - I64_MAX < fill b <= bmax b /\
  fill b <= bmax b + K * refill b - C.

(* positive, or positive once the whole periods elapsed by time tau are credited *)
Definition ready (b : bucket) (tau : Z) : Prop :=
  0 < fill b \/
  exists pn, 0 < pn /\ last_fill b + pn * period b <= tau /\ 0 < fill b + pn * refill b.

Lemma ready_mono b t t' : ready b t -> t <= t' -> ready b t'.
Proof. intros [H|(pn & H1 & H2 & H3)] Hle; [left; exact H|right; exists pn; repeat split; lia]. Qed.

Lemma credit_bounds f p mx :
  - I64_MAX < f <= mx -> 0 < mx <= I64_MAX -> 0 <= p ->
  let f' := Z.min (i64_sat (f + i64_sat p)) mx in
  f <= f' <= mx /\ f' <= f + p /\ (0 < f + p -> 0 < f').
Proof.
  intros Hf Hm Hp. cbv zeta. pose proof i64_order as O.
  rewrite (i64_sat_min p), i64_sat_min by lia.
  lia.
Qed.

Lemma upd_finv b K C now :
  wfp b -> finv b K C -> finv (upd b now) (K + periods_of b now) C.
Proof.
  intros W (Hm & Hf & H3). pose proof (periods_range b now W) as Hk. destruct W as (Hr & _).
  unfold finv. rewrite upd_bmax, upd_refill, upd_fill.
  destruct (Z.eqb_spec (periods_of b now) 0) as [->|_]; [rewrite Z.add_0_r; auto|].
  assert (Hp : 0 <= periods_of b now * refill b) by nia.
  destruct (credit_bounds (fill b) _ (bmax b) Hf Hm Hp) as (Hlo & Hhi & _). lia.
Qed.

(* within the horizon every whole period elapsed since last_fill is credited *)
Lemma periods_exact b t0 K now pn :
  tinv b t0 K now -> now - t0 < HORIZON ->
  0 < pn -> last_fill b + pn * period b <= now -> pn <= periods_of b now.
Proof.
  intros (W & HK & HL & HN) Hh Hpn Hle.
  pose proof W as (_ & Hpm & HP). pose proof (pmns_bounds b W) as Hb. unfold pmns in Hb.
  unfold periods_of. rewrite (wfp_pm b W).
  assert (t0 <= last_fill b) by nia.
  assert (pn * (ms (period b) * NS_PER_MS) <= pn * period b) by (apply Z.mul_le_mono_nonneg_l; lia).
  rewrite Z.max_r by nia.
  pose proof (ms_bounds (now - last_fill b)) as Hel.
  set (el := ms (now - last_fill b)) in *.
  (* the elapsed milliseconds fit a u32, so the cast keeps them *)
  rewrite as_u32_small by (unfold HORIZON, U32MAX, TWO32, NS_PER_MS in *; lia).
  apply Z.div_le_lower_bound; [lia|]. unfold NS_PER_MS in *. lia.
Qed.

Lemma upd_positive b t0 K C now :
  tinv b t0 K now -> finv b K C -> ready b now -> now - t0 < HORIZON ->
  0 < fill (upd b now).
Proof.
  intros T (Hm & Hf & _) R Hh. pose proof T as (W & _). pose proof W as (Hr & _).
  assert (exists pn, 0 <= pn <= periods_of b now /\ 0 < fill b + pn * refill b)
    as (pn & Hpn & Hpos).
  { destruct R as [Hpos|(pn & Hpn & Hle & Hpos)].
    - exists 0. pose proof (periods_range b now W). lia.
    - exists pn. split; [|exact Hpos]. split; [lia|]. eapply periods_exact; eauto. }
  rewrite upd_fill. destruct (Z.eqb_spec (periods_of b now) 0) as [E|_].
  - assert (pn = 0) by lia. subst pn. lia.
  - apply (credit_bounds (fill b) (periods_of b now * refill b) (bmax b)); nia.
Qed.

Lemma cons_step b t0 K C now n :
  tinv b t0 K now -> finv b K C -> ready b now -> now - t0 < HORIZON ->
  0 <= n <= I64_MAX ->
  C < bmax b + ((now - t0) / pmns b) * refill b /\
  finv (cons_bucket b now n) (K + periods_of b now) (C + n) /\
  match cons_result b now n with
  | None => ready (cons_bucket b now n) now
  | Some d => ready (cons_bucket b now n) d \/ HORIZON <= d - t0
  end.
Proof.
  intros T F R Hh Hn. pose proof i64_order as O. pose proof T as (W & HK & _). pose proof W as (Hr & _ & HP).
  pose proof (upd_positive b t0 K C now T F R Hh) as Hpos.
  pose proof (upd_finv b K C now W F) as (Hm1 & Hf1 & H31).
  pose proof (upd_tinv b t0 K now T) as (_ & HK1 & HL1 & HN1).
  pose proof (pmns_bounds b W) as Hb.
  rewrite upd_bmax in Hm1, Hf1, H31. rewrite upd_refill in H31.
  rewrite upd_period in HL1. rewrite upd_pmns in HN1.
  set (K1 := K + periods_of b now) in *.
  (* the periods credited so far have all elapsed *)
  assert (K1 <= (now - t0) / pmns b) by (apply Z.div_le_lower_bound; lia).
  assert (K1 * refill b <= (now - t0) / pmns b * refill b) by (apply Z.mul_le_mono_nonneg_r; lia).
  split; [lia|].
  assert (Hfill : fill (cons_bucket b now n) = fill (upd b now) - n).
  { unfold cons_bucket. cbn [fill]. rewrite Z.min_l by lia.
    apply i64_sat_id. lia. }
  split.
  { unfold finv. rewrite cons_bmax, cons_refill, Hfill. lia. }
  destruct (cons_result b now n) as [d|] eqn:Ec; [|left; apply cons_result_none, Ec].
  apply cons_result_some in Ec as [Hle ->].
  rewrite cons_last_fill, cons_refill, cons_period. rewrite Hfill in *.
  set (f := fill (upd b now) - n) in *.
  rewrite needed_eq, (Z.min_r I64_MAX) by lia.
  destruct (first_refill_count f (refill b) Hr) as [Hj _].
  destruct (Z.le_gt_cases (- f / refill b + 1) U32MAX) as [Hle32|Hgt32].
  - rewrite Z.min_l by lia. left. right. exists (- f / refill b + 1).
    rewrite cons_last_fill, cons_refill, cons_period, Hfill. fold f.
    assert (0 <= - f / refill b) by (apply Z.div_pos; lia). lia.
  - rewrite Z.min_r by lia. right. rewrite HL1. unfold HORIZON.
    assert (U32MAX * NS_PER_MS <= U32MAX * period b)
      by (apply Z.mul_le_mono_nonneg_l; unfold U32MAX; lia).
    assert (0 <= K1 * period b) by nia.
    lia.
Qed.

(* simulation between the reader's state and the budget monitor's (limit, bytes read) *)
Definition lim_match (lim : option (Z * Z * Z * Z)) (c now : Z) (s : rl) : Prop :=
  match lim, bkt s with
  | None, None => True
  | Some (t0, mx, rf, pns), Some b =>
      bmax b = mx /\ refill b = rf /\ pmns b = pns /\ wfp b /\
      (now - t0 < HORIZON ->
       exists K, tinv b t0 K now /\ finv b K c /\
         match refilled s with
         | None => ready b now
         | Some d => ready b d \/ HORIZON <= d - t0
         end)
  | _, _ => False
  end.

Lemma lim_match_wfr lim c now s : lim_match lim c now s -> wfr s.
Proof.
  unfold lim_match, wfr. destruct lim as [[[[t0 mx] rf] pns]|]; destruct (bkt s); try tauto.
Qed.

Lemma lim_match_advance lim c now dt s :
  lim_match lim c now s -> 0 <= dt -> lim_match lim c (now + dt) s.
Proof.
  unfold lim_match. destruct lim as [[[[t0 mx] rf] pns]|]; destruct (bkt s) as [b|]; auto.
  intros (H1 & H2 & H3 & W & H) Hdt. repeat split; auto; try apply W.
  intros Hh. destruct (H ltac:(lia)) as (K & T & F & R). exists K.
  split; [eapply tinv_mono; eauto; lia|]. split; [exact F|].
  destruct (refilled s); [exact R|]. eapply ready_mono; eauto. lia.
Qed.

(* The [let] at the head of mon_reader's Poll branch: the limit and the count the poll is judged
   by.  The monitor does not name it; mon_reader_poll puts the name in, by conversion. *)
Definition mon_pend (lim : option (Z * Z * Z * Z)) (c : Z) (pd : option (option cfg)) (now : Z) :=
  match pd with
  | None => (lim, c)
  | Some cf => match lim_of now cf with
               | Ok l => (l, 0)
               | _ => (lim, c)
               end
  end.

(* a limit that has just taken effect: full bucket, clock at its origin *)
Lemma fresh_match now c b k :
  wf_cfg c = true -> from_config now c = Ok (Some b) ->
  lim_match (Some (now, bmax b, refill b, pmns b)) 0 now (mkR (Some b) None None k).
Proof.
  intros Hw Hc.
  destruct (sat_ok _ _ _ _ (from_config_sat now c) Hc) as (W & Hfill & Hpos & HL & _ & Hmax).
  specialize (Hmax Hw). unfold lim_match. cbn [bkt refilled]. repeat split; try apply W.
  intros _. exists 0. unfold tinv, finv, ready. rewrite Hfill. repeat split; try apply W; lia.
Qed.

Definition pend_wf (s : rl) : Prop :=
  match pend s with Some cf => wf_cfg cf = true | None => True end.

Lemma apply_pend_match lim c now s :
  lim_match lim c now s -> pend_wf s ->
  lim_match (fst (mon_pend lim c (pend s) now)) (snd (mon_pend lim c (pend s) now)) now (apply_pend s now).
Proof.
  intros M PW. unfold apply_pend, mon_pend, pend_wf in *.
  destruct (pend s) as [cf|]; [|exact M]. unfold lim_of.
  destruct (from_config now cf) as [[b|]|e|] eqn:He; cbn [fst snd]; [|exact I|exact M..].
  exact (fresh_match now cf b _ PW He).
Qed.

Lemma awake_ready b t0 now (rf : option Z) :
  match rf with None => ready b now | Some d => ready b d \/ HORIZON <= d - t0 end ->
  (forall d, rf = Some d -> fired d now = true) -> now - t0 < HORIZON -> ready b now.
Proof.
  destruct rf as [d|]; [|auto]. intros R A Hh. pose proof (fired_le d now (A d eq_refl)).
  destruct R; [eapply ready_mono; eauto|lia].
Qed.

Lemma poll_match lim c now s avail cap s' r :
  lim_match lim c now s -> 0 <= avail -> 0 <= cap <= I64_MAX ->
  poll_case s now avail cap s' r ->
  match r with
  | Some n =>
      (match lim with Some l => budget_ok l c now | None => true end) = true /\
      lim_match lim (c + n) now s'
  | None => lim_match lim c now s'
  end.
Proof.
  intros M Ha Hc P.
  destruct P as [Eb|b d _ _ _|b Eb A _|b k Eb A Ea]; [|exact M|..];
    unfold lim_match in *; rewrite Eb in M;
    destruct lim as [[[[t0 mx] rf] pns]|]; try contradiction.
  - destruct (avail =? 0); rewrite Eb; auto.
  - destruct M as (Hmx & Hrf & Hpns & W & H). cbn [bkt refilled]. repeat split; auto; try apply W.
    intros Hh. destruct (H Hh) as (K & T & F & R). exists K. eauto using awake_ready.
  - destruct M as (Hmx & Hrf & Hpns & W & H). cbn [bkt refilled].
    rewrite cons_bmax, cons_refill, cons_pmns.
    set (n := Z.min avail cap) in *.
    pose proof (cons_bucket_wfp b now n W) as W'. unfold budget_ok.
    destruct (Z.leb_spec HORIZON (now - t0)) as [Hh|Hh].
    + split; [reflexivity|]. repeat split; try assumption; try apply W'. lia.
    + destruct (H Hh) as (K & T & F & R). subst mx rf pns.
      destruct (cons_step b t0 K c now n T F (awake_ready _ _ _ _ R A Hh) Hh ltac:(lia)) as (Hb & F' & R').
      split; [apply Z.ltb_lt, Hb|]. repeat split; try apply W'.
      intros _. exists (K + periods_of b now). auto using cons_bucket_tinv.
Qed.

Lemma mon_reader_poll lim c pd now a cap es o os :
  mon_reader lim c pd now (Poll a cap :: es) (o :: os) =
  let '(lim1, c1) := mon_pend lim c pd now in
  match o with
  | OPoll (Some n) =>
      (match lim1 with Some l => budget_ok l c1 now | None => true end)
      && mon_reader lim1 (c1 + n) None now es os
  | _ => mon_reader lim1 c1 None now es os
  end.
Proof. reflexivity. Qed.

Lemma mon_reader_run s now es os :
  reader_run s now es os ->
  forall lim c, lim_match lim c now s -> pend_wf s -> forallb wf_ev es = true ->
  mon_reader lim c (pend s) now es os = true.
Proof.
  induction 1 as [s now|s now dt es os _ IH|s now n es os _ IH|s now cf es os _ IH
                 |s now a cap s' r es os C P' _ IH];
    intros lim c M PW Hwf; [reflexivity|..];
    cbn [forallb wf_ev] in Hwf; apply andb_prop in Hwf as [He Hes].
  - apply IH; [apply lim_match_advance; [exact M|lia]|exact PW|exact Hes].
  - apply IH; assumption.
  - apply IH; assumption.
  - pose proof (poll_match _ _ _ _ a cap _ _ (apply_pend_match lim c now s M PW)
                  ltac:(lia) ltac:(lia) C) as Hr.
    rewrite mon_reader_poll. destruct (mon_pend lim c (pend s) now) as [lim1 c1].
    cbn [fst snd] in Hr. unfold pend_wf in IH. rewrite P' in IH.
    destruct r as [n|]; [|auto].
    destruct Hr as (-> & M'). exact (IH _ _ M' I Hes).
Qed.

(* the resume monitor tracks the same bucket; a pending refill sleep means the bucket is
   empty and the sleep ends no later than its first positive refill *)
Definition res_match (sb : option bucket) (s : rl) : Prop :=
  bkt s = sb /\ wfr s /\
  forall d, refilled s = Some d ->
    exists b, sb = Some b /\ fill b <= 0 /\ d <= first_positive b.

Lemma res_match_idle sb s : bkt s = sb -> wfr s -> refilled s = None -> res_match sb s.
Proof. intros H1 H2 H3. split; [exact H1|]. split; [exact H2|]. intros d Hd. congruence. Qed.

(* the [let sb1] of mon_resume's Poll branch, put in by mon_resume_poll *)
Definition mon_sb (sb : option bucket) (pd : option (option cfg)) (now : Z) : option bucket :=
  match pd with
  | None => sb
  | Some cf => match from_config now cf with Ok b => b | _ => sb end
  end.

Lemma apply_pend_res sb s now :
  res_match sb s -> res_match (mon_sb sb (pend s) now) (apply_pend s now).
Proof.
  intros M. unfold apply_pend, mon_sb. destruct (pend s) as [cf|]; [|exact M].
  pose proof (from_config_sat now cf) as S.
  destruct (from_config now cf) as [[b|]|e|]; [|now apply res_match_idle|exact M..].
  apply res_match_idle; auto. apply S.
Qed.

Lemma mon_resume_poll sb pd now a cap es o os :
  mon_resume sb pd now (Poll a cap :: es) (o :: os) =
  let sb1 := mon_sb sb pd now in
  match o with
  | OPoll None => pending_ok sb1 a now && mon_resume sb1 None now es os
  | OPoll (Some n) =>
      match sb1 with
      | None => mon_resume None None now es os
      | Some b => match consume b now n with
                  | Ok (b', _) => mon_resume (Some b') None now es os
                  | _ => true
                  end
      end
  | _ => mon_resume sb1 None now es os
  end.
Proof. reflexivity. Qed.

Lemma pending_ok_spec sb avail now :
  pending_ok sb avail now = true <->
  avail = 0 \/ exists b, sb = Some b /\ fill b <= 0 /\ fired (first_positive b) now = false.
Proof.
  unfold pending_ok. apply orb_iff; [apply Z.eqb_eq|].
  destruct sb as [b|].
  - eapply iff_trans; [apply andb_iff; [apply Z.leb_le|apply negb_true_iff]|].
    split; [intros H; exists b; auto|intros (b' & [= <-] & H); exact H].
  - split; [discriminate|intros (b & [=] & _)].
Qed.

Lemma poll_res sb s now avail cap s' r :
  res_match sb s -> poll_case s now avail cap s' r ->
  match r with
  | None => pending_ok sb avail now = true /\ res_match sb s'
  | Some n =>
      match sb with
      | None => res_match None s'
      | Some b => sat True (fun '(b', _) => res_match (Some b') s') (consume b now n)
      end
  end.
Proof.
  intros M P. pose proof M as (Hb & W & Hd). unfold wfr in W.
  destruct P as [Eb|b d Eb Er Ef|b Eb A ->|b k Eb A Ea]; rewrite Eb in *; subst sb.
  - destruct (Z.eqb_spec avail 0) as [E|_]; [|exact M].
    split; [apply pending_ok_spec; left; exact E|exact M].
  - split; [|exact M].
    destruct (Hd d Er) as (b0 & [= <-] & Hf & Hle).
    apply pending_ok_spec. right. exists b. split; [reflexivity|]. split; [exact Hf|].
    exact (fired_mono d _ now Hle Ef).
  - split; [apply pending_ok_spec; left; reflexivity|]. now apply res_match_idle.
  - rewrite (consume_eq b now _ W).
    pose proof (cons_bucket_wfp b now (Z.min avail cap) W) as W'.
    split; [reflexivity|]. split; [exact W'|]. cbn [refilled]. intros d Ec.
    destruct (deadline_is_first_positive b now _ d W Ec) as (Hf & _ & _ & Hle & _). eauto.
Qed.

Lemma mon_resume_run s now es os :
  reader_run s now es os -> forall sb, res_match sb s -> mon_resume sb (pend s) now es os = true.
Proof.
  induction 1 as [s now|s now dt es os _ IH|s now n es os _ IH|s now cf es os _ IH
                 |s now a cap s' r es os C P' _ IH];
    intros sb M; [reflexivity|apply IH, M..|].
  pose proof (poll_res _ _ _ _ _ _ _ (apply_pend_res sb s now M) C) as Hr.
  rewrite mon_resume_poll. cbv zeta. rewrite P' in IH. destruct r as [n|].
  - destruct (mon_sb sb (pend s) now) as [b|]; [destruct (consume b now n) as [[b' d]|e|]|]; eauto.
  - destruct Hr as [-> M']. exact (IH _ M').
Qed.

Lemma mon_resume_model es : forall s sb now os k,
  res_match sb s -> run_reader s now es = Ok (os, k) ->
  mon_resume sb (pend s) now es os = true.
Proof.
  intros s sb now os k M R.
  exact (mon_resume_run _ _ _ _ (sat_ok _ _ _ _ (run_reader_sat es s now (proj1 (proj2 M))) R) sb M).
Qed.

Lemma no_panic setup es :
  (match setup with SBucket _ _ per => 0 <= per | _ => True end) ->
  model (setup, es) <> Panic.
Proof.
  intros H. apply (sat_total (fun _ => True)). unfold model. destruct setup as [mx bps per|c].
  - eapply sat_bind; [exact (new_sat 0 mx bps per H)|]. intros b (W & _).
    eapply sat_bind; [exact (run_bucket_sat es b 0 W)|]. intros l _. exact I.
  - eapply sat_bind; [exact (from_config_sat 0 c)|]. intros ob Hob.
    assert (W : wfr (mkR ob None None 0)) by (destruct ob; [apply Hob|exact I]).
    eapply sat_mono; [| |exact (run_reader_sat es _ 0 W)]; auto.
Qed.

Lemma model_monitor i : monitor i (model i) = true.
Proof.
  unfold monitor. destruct (negb (wf_input i)) eqn:Hw; [reflexivity|].
  apply negb_false_iff in Hw. unfold wf_input in Hw. apply andb_prop in Hw as [Hs He].
  destruct i as [st es]. cbn [fst snd] in *.
  destruct st as [mx bps per|cf]; cbn [model wf_setup] in *.
  - pose proof (new_sat 0 mx bps per ltac:(lia)) as S.
    destruct (new 0 mx bps per) as [b|e|]; [|reflexivity|contradiction].
    destruct S as (W & _ & _ & HL & HP & _).
    pose proof (run_bucket_sat es b 0 W) as R.
    destruct (run_bucket b 0 es) as [l|e|]; [|reflexivity|contradiction].
    rewrite <- HP. apply (R 0); [repeat split; try apply W; lia|exact He].
  - (* both reader monitors, from any start state that matches a limit *)
    assert (Hgo : forall ob lim, lim_match lim 0 0 (mkR ob None None 0) ->
              match run_reader (mkR ob None None 0) 0 es with
              | Ok (os, _) => mon_reader lim 0 None 0 es os && mon_resume ob None 0 es os
              | Err _ => true
              | Panic => false
              end = true).
    { intros ob lim M. pose proof (lim_match_wfr _ _ _ _ M) as W.
      pose proof (run_reader_sat es _ 0 W) as R.
      destruct (run_reader _ 0 es) as [[os k]|e|]; [|reflexivity|contradiction].
      rewrite (mon_reader_run _ _ _ _ R lim 0 M I He : mon_reader lim 0 None 0 es os = true).
      exact (mon_resume_run _ _ _ _ R ob (res_match_idle _ _ eq_refl W eq_refl)). }
    unfold lim_of. pose proof (from_config_sat 0 cf) as S.
    destruct (from_config 0 cf) as [[b|]|e|] eqn:Hc; [|exact (Hgo None None I)|reflexivity|contradiction].
    exact (Hgo (Some b) _ (fresh_match 0 cf b 0 Hs Hc)).
Qed.

Fixpoint bytes_read (os : list obs) : Z :=
  match os with
  | [] => 0
  | OPoll (Some n) :: os' => n + bytes_read os'
  | _ :: os' => bytes_read os'
  end.

Fixpoint max_read (os : list obs) : Z :=
  match os with
  | [] => 0
  | OPoll (Some n) :: os' => Z.max n (max_read os')
  | _ :: os' => max_read os'
  end.

Fixpoint elapsed (es : list ev) : Z :=
  match es with
  | [] => 0
  | Advance dt :: es' => dt + elapsed es'
  | _ :: es' => elapsed es'
  end.

Definition no_reconfig (es : list ev) : bool :=
  forallb (fun e => match e with Reconfig _ => false | _ => true end) es.

Lemma elapsed_nonneg es : forallb wf_ev es = true -> 0 <= elapsed es.
Proof.
  induction es as [|e es IH]; cbn [forallb elapsed]; [lia|].
  intros H. apply andb_prop in H as [He Hes]. specialize (IH Hes).
  destruct e; cbn [wf_ev] in He; lia.
Qed.

Lemma max_read_nonneg os : 0 <= max_read os.
Proof. induction os as [|o os IH]; cbn [max_read]; [lia|]. destruct o as [|d|[n|]]; lia. Qed.

(* Every read starts below the budget accrued so far, so the total stays below the final
   budget plus the last (at most: the largest) read.  Of the run only the shape of [os] is
   used: a poll is observed as OPoll, every other event as ONone. *)
Lemma mon_reader_bound s now es os :
  reader_run s now es os ->
  forall t0 mx rf pns c,
  forallb wf_ev es = true -> no_reconfig es = true -> 0 < pns -> 0 < rf ->
  mon_reader (Some (t0, mx, rf, pns)) c None now es os = true ->
  now + elapsed es - t0 < HORIZON ->
  c + bytes_read os <=
  Z.max c (mx + ((now + elapsed es - t0) / pns) * rf - 1 + max_read os).
Proof.
  induction 1 as [s now|s now dt es os _ IH|s now n es os _ IH|s now cf es os _ IH
                 |s now a cap s' r es os _ _ _ IH];
    intros t0 mx rf pns c Hwf Hnr Hp Hr Hm Hh; cbn [bytes_read max_read elapsed] in *; [lia|..];
    cbn [forallb no_reconfig] in Hwf, Hnr; apply andb_prop in Hwf as [He Hes];
    apply andb_prop in Hnr as [Hn1 Hnr]; try discriminate.
  - rewrite Z.add_assoc in Hh |- *. apply IH; auto.
  - apply IH; auto.
  - rewrite mon_reader_poll in Hm. cbn [mon_pend] in Hm.
    pose proof (elapsed_nonneg es Hes) as Hel. pose proof (max_read_nonneg os) as Hmr.
    destruct r as [n|]; [|apply IH; auto].
    apply andb_prop in Hm as [Hb Hm].
    specialize (IH t0 mx rf pns (c + n) Hes Hnr Hp Hr Hm Hh).
    clear Hm Hes Hnr He.
    assert ((now - t0) / pns * rf <= (now + elapsed es - t0) / pns * rf).
    { apply Z.mul_le_mono_nonneg_r; [lia|]. apply Z.div_le_mono; lia. }
    unfold budget_ok in Hb. lia.
Qed.

(* single limit, no live change *)
Lemma rate_bound cf b es os k :
  wf_cfg cf = true -> from_config 0 cf = Ok (Some b) ->
  forallb wf_ev es = true -> no_reconfig es = true ->
  model (SReader cf, es) = Ok (os, k) ->
  elapsed es < HORIZON ->
  bytes_read os < bmax b + (elapsed es / PER100) * refill b + max_read os.
Proof.
  intros Hw Hc Hes Hnr Hmod Hh. unfold model in Hmod. rewrite Hc in Hmod.
  pose proof (fresh_match 0 cf b 0 Hw Hc) as M.
  pose proof (sat_ok _ _ _ _ (run_reader_sat es _ 0 (lim_match_wfr _ _ _ _ M)) Hmod
              : reader_run _ 0 es os) as Hrun.
  pose proof (mon_reader_run _ _ _ _ Hrun _ _ M I Hes) as Hmon.
  destruct (sat_ok _ _ _ _ (from_config_sat 0 cf) Hc) as ((Hr & _) & _ & Hpos & _ & HP & _).
  assert (Hpns : pmns b = PER100) by (unfold pmns; rewrite HP; vm_compute; reflexivity).
  rewrite Hpns in Hmon. cbn [pend] in Hmon.
  pose proof (mon_reader_bound _ _ _ _ Hrun 0 (bmax b) (refill b) PER100 0 Hes Hnr
                ltac:(vm_compute; reflexivity) Hr Hmon ltac:(lia)) as Hb.
  replace (0 + elapsed es - 0) with (elapsed es) in Hb by ring.
  pose proof (elapsed_nonneg es Hes) as Hel. pose proof (max_read_nonneg os) as Hmr.
  assert (0 <= elapsed es / PER100) by (apply Z.div_pos; [lia|vm_compute; reflexivity]).
  assert (0 <= elapsed es / PER100 * refill b) by nia.
  lia.
Qed.

Lemma resumes s b d now avail cap :
  bkt s = Some b -> wfp b -> pend s = None -> refilled s = Some d ->
  fired d now = true -> 0 < avail -> 
  exists s', poll s now avail cap = Ok (s', Some (Z.min avail cap)).
Proof.
  (* poll_sat leaves [Err] open, which this statement excludes: the model is opened *)
  intros Hb W Hp Hr Hf Ha. unfold poll. rewrite Hp, Hb, Hr, Hf. cbn [negb].
  destruct (avail =? 0) eqn:E; [lia|].
  rewrite (consume_eq b now _ W). destruct (cons_result b now (Z.min avail cap)); eauto.
Qed.

(* on the first two inputs the unfixed code panics; on the third (period 2^32 ms + 1 ms,
   truncated to 1 ms by `as u32`) it refills 2^32 times too fast, then stalls *)
Example fixed_mul_overflow :
  model (SBucket I64_MAX I64_MAX 100000000, [Advance 200000000000; Consume 1])
  = Ok ([ONone; OCons None], 0).
Proof. vm_compute. reflexivity. Qed.

Example fixed_add_overflow :
  model (SBucket 1 10 100000000, [Consume 18446744073709551615; Consume 18446744073709551615])
  = Ok ([OCons (Some 429496729500000000); OCons (Some 429496729500000000)], 0).
Proof. vm_compute. reflexivity. Qed.

Example fixed_period_truncation :
  model (SBucket 1000 1000 4294967297000000, [Consume 1]) = Err 1%N.
Proof. vm_compute. reflexivity. Qed.

(* the largest accepted period *)
Example max_period_accepted :
  model (SBucket 1000 1000 4294967295999999, [Consume 1]) = Ok ([OCons None], 0).
Proof. vm_compute. reflexivity. Qed.

(* throttling happens and ends: burst 100, 1000 B/s *)
Example throttle_example :
  model (SReader (Some (1000, Some 100)),
         [Poll 5000 64; Poll 5000 64; Poll 5000 64; Advance 99000000; Poll 5000 64;
          Advance 1000000; Poll 5000 64])
  = Ok ([OPoll (Some 64); OPoll (Some 64); OPoll None; ONone; OPoll None; ONone; OPoll (Some 64)], 1).
Proof. vm_compute. reflexivity. Qed.
