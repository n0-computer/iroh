(* C36 — a zone is served only from packets signed by its key.  Invariant [Inv]: every packet
   in the store or the cache was PUT under its key with a signature verifying for that key
   ([legit]).  A record set the store hands out is read from the zone of such a packet
   ([from_packet]), so each of its records passes the monitor's test [justified]. *)
From V Require Import Lib.Base Lib.Lists Lib.Trace Model.C37 Model.C36.
(* not imported: [Inv], [step_spec], [run_spec], [final] and their kin below are this file's
   own; the facts about [C37.insert] and the tables taken from there carry their prefix *)
From V Require Proofs.C37.
From V Require Import Lib.LiaBool.
Import C36.
Open Scope N_scope.

Lemma label_ci_refl a : label_eqb_ci a a = true.
Proof. apply bytes_eqb_refl. Qed.

Lemma label_eqb_ci_iff a b : label_eqb_ci a b = true <-> lower a = lower b.
Proof. apply bytes_eqb_iff. Qed.

Lemma name_eqb_ci_iff a : forall b, name_eqb_ci a b = true <-> lower_name a = lower_name b.
Proof.
  unfold name_eqb_ci, lower_name.
  induction a as [|x a IH]; intros [|y b]; cbn [list_eqb map]; try (split; discriminate); [tauto|].
  rewrite andb_true_iff, label_eqb_ci_iff, IH. split; [intros [-> ->]; reflexivity|intros [= -> ->]; auto].
Qed.

Lemma lower_b_idem b : lower_b (lower_b b) = lower_b b.
Proof.
  unfold lower_b. destruct ((65 <=? b) && (b <=? 90)) eqn:E; [|now rewrite E].
  now rewrite (proj2 (N.leb_gt (b + 32) 90)), andb_false_r by lia.
Qed.

Lemma lower_idem l : lower (lower l) = lower l.
Proof. unfold lower. rewrite map_map. apply map_ext, lower_b_idem. Qed.

Lemma lower_name_idem n : lower_name (lower_name n) = lower_name n.
Proof. unfold lower_name. rewrite map_map. apply map_ext, lower_idem. Qed.

Lemma lower_name_app a b : lower_name (a ++ b) = lower_name a ++ lower_name b.
Proof. apply map_app. Qed.

(* a set that holds rd stays as it is: hickory's record equality ignores the ttl *)
Lemma replace_rdata_same l ttl rd : forall l', replace_rdata l ttl rd = Some l' -> l' = l.
Proof.
  induction l as [|[t d] l IH]; intros l'; cbn [replace_rdata]; [discriminate|].
  destruct (bytes_eqb d rd); [now intros [= <-]|].
  destruct (replace_rdata l ttl rd) as [r'|]; [|discriminate].
  intros [= <-]. now rewrite (IH _ eq_refl).
Qed.

Lemma rrset_insert_in ty s ttl rd x :
  In x (rrset_insert ty s ttl rd) -> In x s \/ x = (ttl, rd).
Proof.
  unfold rrset_insert. destruct ((ty =? T_CNAME) || (ty =? T_ANAME)).
  - cbn. intros [<-|[]]. now right.
  - destruct (replace_rdata s ttl rd) as [s'|] eqn:E.
    + apply replace_rdata_same in E as ->. auto.
    + intros H. apply in_app_or in H as [H|[<-|[]]]; auto.
Qed.

(* the set's name and each of its (ttl, rdata) come from a zone record matching qn and qt *)
Definition from_zone (zrecs : list rr) (qn : name) (qt : N) (rs : rrset) : Prop :=
  (exists x, In x zrecs /\ rname x = fst rs /\ name_eqb_ci (rname x) qn = true /\ rtype x = qt) /\
  forall tr, In tr (snd rs) ->
    exists x, In x zrecs /\ name_eqb_ci (rname x) qn = true /\ rtype x = qt /\
              rttl x = fst tr /\ rdata x = snd tr.

Lemma bucket_from_zone all qn qt : forall zrecs acc rs,
  (forall x, In x zrecs -> In x all) ->
  match acc with Some a => from_zone all qn qt a | None => True end ->
  bucket zrecs qn qt acc = Some rs -> from_zone all qn qt rs.
Proof.
  induction zrecs as [|r rest IH]; intros acc rs Hsub Hacc; cbn [bucket].
  - intros ->. exact Hacc.
  - destruct (name_eqb_ci (rname r) qn && (rtype r =? qt)) eqn:E.
    + apply andb_prop in E as [E1 E2]. apply N.eqb_eq in E2.
      assert (Hr : In r all) by (apply Hsub; now left).
      apply IH; [intros x Hx; apply Hsub; now right|].
      destruct acc as [[n s]|].
      * destruct Hacc as [Hn Hs]. split; [exact Hn|].
        cbn [snd]. intros tr Htr. apply rrset_insert_in in Htr as [Htr| ->].
        -- now apply Hs.
        -- exists r. now repeat split.
      * split; cbn [fst snd].
        -- exists r. now repeat split.
        -- intros tr [<-|[]]. exists r. now repeat split.
    + apply IH; [intros x Hx; apply Hsub; now right|exact Hacc].
Qed.

Lemma zone_lookup_from zl recs qn qt rs :
  zone_lookup zl recs qn qt = Some rs -> from_zone (zone_records zl recs) qn qt rs.
Proof.
  unfold zone_lookup. apply bucket_from_zone; [auto|exact I].
Qed.

Lemma keep_iff zl x : keep zl x = true <->
  rtype x <> T_SOA /\ rtype x <> T_NS /\ exists l, last_label (rname x) = Some l /\ lower l = lower zl.
Proof.
  eapply iff_trans.
  - apply andb_iff; [apply negb_iff, orb_iff; apply N.eqb_eq|].
    apply some_ex_iff. intros l. apply label_eqb_ci_iff.
  - tauto.
Qed.

Lemma zone_records_in zl recs x' :
  In x' (zone_records zl recs) -> exists x, In x recs /\ keep zl x = true /\ x' = strip x.
Proof.
  unfold zone_records. rewrite in_map_iff. intros (x & <- & H). apply filter_In in H as [H1 H2].
  exists x. auto.
Qed.

Definition legit (O : oracles) (hist : list (N * body)) (k : N) (p : C37.packet) : Prop :=
  exists sig ts pay plen,
    p = C37.mkP k ts sig [pay] /\ In (k, Full sig ts pay plen) hist /\ verify O k ts pay sig = true.

Definition all_legit (O : oracles) (hist : list (N * body)) (t : C37.table) : Prop :=
  forall k p, C37.tget t k = Some p -> legit O hist k p.

Definition Inv (O : oracles) (s : C37.state) (hist : list (N * body)) : Prop :=
  all_legit O hist (C37.store s) /\ all_legit O hist (C37.cache s).

Lemma legit_mono O hist x k p : legit O hist k p -> legit O (hist ++ [x]) k p.
Proof.
  intros (sig & ts & pay & plen & E & Hin & V). exists sig, ts, pay, plen.
  repeat split; auto. apply in_or_app. now left.
Qed.

Lemma legit_key O hist k p : legit O hist k p -> C37.key p = k.
Proof. intros (sig & ts & pay & plen & -> & _). reflexivity. Qed.

Lemma all_legit_tset O hist t k p : all_legit O hist t -> legit O hist k p -> all_legit O hist (C37.tset t k p).
Proof.
  intros Ht L k' q. rewrite Proofs.C37.tget_tset. destruct (N.eqb_spec k k') as [<-|]; [|apply Ht].
  intros [= <-]. exact L.
Qed.

Lemma inv_init O : Inv O C37.init [].
Proof. split; intros k p; discriminate. Qed.

Lemma inv_mono O s hist x : Inv O s hist -> Inv O s (hist ++ [x]).
Proof. intros [H1 H2]. split; intros k p E; apply legit_mono; auto. Qed.

(* a PUT is rejected and changes nothing, or is a body whose signature verifies and inserts it *)
Inductive put_case (O : oracles) (s : C37.state) (k : N) : body -> C37.state * N -> Prop :=
| put_rejects b c : put_accepted O k b = false -> c <> 0 -> put_case O s k b (s, c)
| put_accepts sig ts pay plen :
    verify O k ts pay sig = true -> put_accepted O k (Full sig ts pay plen) = true ->
    put_case O s k (Full sig ts pay plen) (fst (C37.insert s (C37.mkP k ts sig [pay])), 0).

Lemma put_cases O s k b : put_case O s k b (put O s k b).
Proof.
  (* [put_accepted O k b] stays beside its unfolding: each exit of [put] fixes its value *)
  unfold put. generalize (eq_refl (put_accepted O k b)). unfold put_accepted at 2.
  destruct (z32 O k); [|now left].
  destruct b as [n|sig ts pay plen]; [now left|].
  rewrite N.leb_antisym. destruct (MAX_DNS_PACKET_SIZE <? plen); [now left|].
  destruct (verify O k ts pay sig) eqn:V; [|now left].
  destruct (parse_s O pay); [|now left].
  now right.
Qed.

Lemma put_rejected_same O s k b : snd (put O s k b) <> 0 -> fst (put O s k b) = s.
Proof. destruct (put_cases O s k b); [reflexivity|now intros []]. Qed.

Lemma bad_signature_rejected O s k sig ts pay plen :
  verify O k ts pay sig = false ->
  snd (put O s k (Full sig ts pay plen)) <> 0 /\ fst (put O s k (Full sig ts pay plen)) = s.
Proof.
  intros V. unfold put. rewrite V.
  destruct (z32 O k); [destruct (MAX_DNS_PACKET_SIZE <? plen)|]; (split; [discriminate|reflexivity]).
Qed.

Lemma inv_insert O s hist k sig ts pay plen :
  Inv O s hist -> verify O k ts pay sig = true ->
  Inv O (fst (C37.insert s (C37.mkP k ts sig [pay]))) (hist ++ [(k, Full sig ts pay plen)]).
Proof.
  intros [Is Ic] V. split.
  - intros k' q E. apply Proofs.C37.insert_store_in in E as [[-> ->]|E]; [|now apply legit_mono, Is].
    exists sig, ts, pay, plen. repeat split; auto. apply in_or_app. right. now left.
  - intros k' q E. apply Proofs.C37.insert_cache in E as [E _]. now apply legit_mono, Ic.
Qed.

Definition from_packet (O : oracles) (hist : list (N * body)) (k : N) (qn : name) (qt : N) (rs : rrset) : Prop :=
  exists p zl recs, legit O hist k p /\ z32 O k = Some zl /\ parse_h O (pay_id p) = Some recs /\
                    from_zone (zone_records zl recs) qn qt rs.

Lemma cache_resolve_from O hist ca k qn qt rs :
  all_legit O hist ca -> cache_resolve O ca k qn qt = Some rs -> from_packet O hist k qn qt rs.
Proof.
  intros H. unfold cache_resolve, cached_lookup. destruct (C37.tget ca k) as [z|] eqn:E; [|discriminate].
  apply H in E as L. rewrite (legit_key _ _ _ _ L).
  destruct (z32 O k) as [zl|] eqn:Ez; [|discriminate].
  destruct (parse_h O (pay_id z)) as [recs|] eqn:Ep; [|discriminate].
  intros Hz. exists z, zl, recs. repeat split; auto; now apply zone_lookup_from.
Qed.

Lemma resolve_spec O s hist k qn qt :
  Inv O s hist ->
  Inv O (fst (resolve O s k qn qt)) hist /\
  forall rs, snd (resolve O s k qn qt) = Ok (Some rs) -> from_packet O hist k qn qt rs.
Proof.
  intros I. pose proof I as [Is Ic]. unfold resolve.
  destruct (cache_resolve O (C37.cache s) k qn qt) as [r|] eqn:Ec; cbn [fst snd].
  - split; [exact I|]. intros rs [= <-]. now apply (cache_resolve_from O hist (C37.cache s)).
  - destruct (C37.tget (C37.store s) k) as [p|] eqn:Es; cbn [fst snd]; [|split; [exact I|discriminate]].
    apply Is in Es as L. rewrite (legit_key _ _ _ _ L).
    destruct (match C37.tget (C37.cache s) k with Some old => C37.ts p <? C37.ts old | None => false end).
    + cbn [fst snd]. split; [exact I|]. intros rs [= E]. rewrite Ec in E. discriminate.
    + destruct (parse_h O (pay_id p)) eqn:Ep; cbn [fst snd]; [|split; [exact I|discriminate]].
      assert (Hca := all_legit_tset O hist _ k p Ic L).
      split; [split; assumption|]. intros rs [= E]. now apply (cache_resolve_from O hist _ _ _ _ _ Hca).
Qed.

Lemma from_packet_not_soa_ns O hist k qn qt rs :
  from_packet O hist k qn qt rs -> qt <> T_SOA /\ qt <> T_NS.
Proof.
  intros (p & zl & recs & _ & _ & _ & [(x' & Hx' & _ & _ & Ht) _]).
  apply zone_records_in in Hx' as (x & _ & Hk & ->). cbn [strip rtype] in Ht. subst qt.
  apply keep_iff in Hk as (A & B & _). auto.
Qed.

(* the name argument [qn'] of [justified] plays no part in its value *)
Lemma from_packet_justified O hist K zl o qn qn' qt rs ttl rd :
  z32 O K = Some zl -> from_packet O hist K qn qt rs -> In (ttl, rd) (snd rs) ->
  justified O hist K zl o qn' qt (mkRR (lower_name (fst rs ++ [zl] ++ o)) qt ttl rd) = true.
Proof.
  intros Ez (p & zl' & recs & L & Ez' & Ep & [Hname Hrecs]) Hin.
  rewrite Ez in Ez'. injection Ez' as <-.
  destruct (Hrecs _ Hin) as (x' & Hx' & Hn & Ht & Httl & Hrd). cbn [fst snd] in *.
  apply zone_records_in in Hx' as (x & Hx & Hk & ->). cbn [strip rname rtype rttl rdata] in *.
  destruct Hname as (y' & Hy' & Hy1 & Hy2 & _).
  destruct L as (sig & ts & pay & plen & -> & Hhist & V). cbn [pay_id C37.payload] in Ep.
  unfold justified. cbn [rtype rname rttl rdata]. rewrite N.eqb_refl. cbn [andb].
  apply existsb_exists. exists (K, Full sig ts pay plen). split; [exact Hhist|].
  rewrite N.eqb_refl, V, Ep. cbn [andb].
  apply existsb_exists. exists x. split; [exact Hx|].
  rewrite Hk, Ht, Httl, Hrd, !N.eqb_refl, bytes_eqb_refl. cbn [andb].
  apply name_eqb_ci_iff. rewrite lower_name_idem, !lower_name_app. f_equal.
  apply name_eqb_ci_iff in Hn, Hy2. rewrite <- Hy1. congruence.
Qed.

(* [obs_ok]'s test on an answer that must come from the static zone; the model writes it out
   at each place it stands, and [static_lookup_only] meets those by conversion *)
Definition static_only (static : list rr) (ans : list rr) : bool :=
  forallb (fun r => existsb (fun x => rr_eqb (mkRR (lower_name (rname x)) (rtype x) (rttl x) (rdata x)) r) static) ans.

Lemma rr_eqb_refl r : rr_eqb r r = true.
Proof.
  unfold rr_eqb. rewrite !N.eqb_refl, bytes_eqb_refl, (list_eqb_refl _ bytes_eqb_refl). reflexivity.
Qed.

Lemma static_lookup_only static n t : static_only static (static_lookup static n t) = true.
Proof.
  unfold static_only, static_lookup. apply forallb_forall. intros r Hr.
  apply in_map_iff in Hr as (x & <- & Hx). apply filter_In in Hx as [Hx _].
  apply existsb_exists. exists x. split; [exact Hx|apply rr_eqb_refl].
Qed.

Lemma query_spec O origins static s hist n t :
  Inv O s hist ->
  let '(s', (rc, ans)) := query O origins static s n t in
  Inv O s' hist /\ obs_ok O origins static hist (Query n t) (OAns rc ans) = true.
Proof.
  intros I. cbn [obs_ok]. unfold query.
  destruct (in_catalog origins (lower_name n)); cbn [negb].
  2:{ rewrite !orb_true_r. now split. }
  destruct (t =? T_SOA); cbn [orb].
  { split; [exact I|apply static_lookup_only]. }
  destruct (t =? T_AXFR).
  { rewrite orb_true_r. now split. }
  destruct (t =? T_NS); cbn [orb].
  { split; [exact I|apply static_lookup_only]. }
  destruct (parse_name O origins (lower_name n)) as [[[rest K] o]|].
  2:{ split; [exact I|apply static_lookup_only]. }
  destruct (resolve_spec O s hist K rest t I) as [I' Hrs].
  destruct (resolve O s K rest t) as [s' [[[setname recs]|]|e|]]; cbn [fst snd] in *;
    try (split; [exact I'|now destruct (z32 O K)]).
  destruct (z32 O K) as [zl|] eqn:Ez; (split; [exact I'|]); [|reflexivity].
  apply forallb_forall. intros r Hr. apply in_map_iff in Hr as ([ttl rd] & <- & Hin).
  exact (from_packet_justified O hist K zl o rest _ t (setname, recs) ttl rd Ez (Hrs _ eq_refl) Hin).
Qed.

Lemma resolve_obs_spec O origins static s hist k n t :
  Inv O s hist ->
  Inv O (fst (resolve_obs O s k n t)) hist /\
  obs_ok O origins static hist (Resolve k n t) (snd (resolve_obs O s k n t)) = true.
Proof.
  intros I. unfold resolve_obs.
  destruct (resolve_spec O s hist k n t I) as [I' Hrs].
  destruct (resolve O s k n t) as [s' [[[setname recs]|]|e|]]; cbn [fst snd obs_ok] in *;
    (split; [exact I'|]); [|destruct (z32 O k); reflexivity..].
  specialize (Hrs _ eq_refl).
  destruct (z32 O k) as [zl|] eqn:Ez; [|destruct Hrs as (p & zl & recs' & _ & Ez' & _); congruence].
  apply forallb_forall. intros r Hr. apply in_map_iff in Hr as ([ttl rd] & <- & Hin).
  pose proof (from_packet_justified O hist k zl [] n (n ++ [zl]) t (setname, recs) ttl rd Ez Hrs Hin) as J.
  cbn [fst snd app rname rtype rttl rdata] in *. now rewrite lower_name_app in J.
Qed.

(* the history [monitor_from] goes on with after [o]; the model spells the match out inside the
   fixpoint, and [run_spec] ties the two by conversion *)
Definition hist_after (hist : list (N * body)) (o : op) : list (N * body) :=
  match o with Put k b => hist ++ [(k, b)] | _ => hist end.

Lemma step_spec O origins static s hist o :
  Inv O s hist ->
  Inv O (fst (step O origins static s o)) (hist_after hist o) /\
  obs_ok O origins static hist o (snd (step O origins static s o)) = true.
Proof.
  intros I. destruct o as [k b|k|n t|k n t]; cbn [step hist_after].
  - destruct (put_cases O s k b) as [b c A C|sig ts pay plen V A]; cbn [fst snd obs_ok].
    + split; [now apply inv_mono|]. apply N.eqb_neq in C. now rewrite A, C.
    + split; [now apply inv_insert|]. now rewrite A.
  - cbn [fst snd]. split; [exact I|]. unfold getpk. destruct (z32 O k); [|reflexivity].
    destruct (C37.tget (C37.store s) k) as [p|] eqn:E; [|reflexivity].
    destruct (proj1 I _ _ E) as (sig & ts & pay & plen & -> & Hin & V).
    cbn [obs_ok C37.ts C37.sig pay_id C37.payload].
    apply existsb_exists. exists (k, Full sig ts pay plen). split; [exact Hin|].
    now rewrite !N.eqb_refl, V.
  - pose proof (query_spec O origins static s hist n t I) as H.
    now destruct (query O origins static s n t) as [s' [rc ans]].
  - apply resolve_obs_spec. exact I.
Qed.

Definition run_from_cons O origins static :=
  mrun_cons (step O origins static) (run_from O origins static) (fun _ _ _ => eq_refl).

Definition puts (ops : list op) : list (N * body) :=
  flat_map (fun o => match o with Put k b => [(k, b)] | _ => [] end) ops.

Lemma run_spec O origins static : forall ops s hist,
  Inv O s hist ->
  monitor_from O origins static hist ops (snd (run_from O origins static s ops)) = true /\
  Inv O (fst (run_from O origins static s ops)) (hist ++ puts ops).
Proof.
  induction ops as [|o ops IH]; intros s hist I.
  - rewrite app_nil_r. split; [reflexivity|exact I].
  - destruct (step_spec O origins static s hist o I) as [I' H]. destruct (IH _ _ I') as [Hm Hi].
    rewrite run_from_cons. cbn [fst snd monitor_from]. rewrite H. split; [exact Hm|].
    replace (hist ++ puts (o :: ops)) with (hist_after hist o ++ puts ops); [exact Hi|].
    destruct o; cbn [hist_after puts flat_map app]; now rewrite <- ?app_assoc.
Qed.

Lemma model_monitor i : monitor i (model i) = true.
Proof. destruct i as [e ops]. unfold model, monitor. apply run_spec, inv_init. Qed.

Definition final (O : oracles) (origins : list name) (static : list rr) (ops : list op) : C37.state :=
  fst (run_from O origins static C37.init ops).

Lemma inv_final O origins static ops : Inv O (final O origins static ops) (puts ops).
Proof. exact (proj2 (run_spec O origins static ops C37.init [] (inv_init O))). Qed.

(* Prop reading of [justified] *)
Definition Justified (O : oracles) (hist : list (N * body)) (K : N) (zl : label) (o : name) (r : rr) : Prop :=
  exists sig ts pay plen recs x,
    In (K, Full sig ts pay plen) hist /\ verify O K ts pay sig = true /\
    parse_h O pay = Some recs /\ In x recs /\
    rtype x <> T_SOA /\ rtype x <> T_NS /\
    (exists l, last_label (rname x) = Some l /\ lower l = lower zl) /\
    rtype x = rtype r /\ rttl x = rttl r /\ rdata x = rdata r /\
    lower_name (removelast (rname x) ++ [zl] ++ o) = lower_name (rname r).

Lemma justified_Prop O hist K zl o qn qt r :
  justified O hist K zl o qn qt r = true -> rtype r = qt /\ Justified O hist K zl o r.
Proof.
  unfold justified. intros H. apply andb_prop in H as [Ht H]. apply N.eqb_eq in Ht. split; [exact Ht|].
  apply existsb_exists in H as ([k b] & Hin & H). apply andb_prop in H as [Hk H].
  apply N.eqb_eq in Hk. subst k. destruct b as [n|sig ts pay plen]; [discriminate|].
  apply andb_prop in H as [V H]. destruct (parse_h O pay) as [recs|] eqn:Ep; [|discriminate].
  apply existsb_exists in H as (x & Hx & H).
  apply andb_prop in H as [H Hn]. apply andb_prop in H as [H Hrd]. apply andb_prop in H as [H Httl].
  apply andb_prop in H as [Hk Hty].
  apply N.eqb_eq in Hty, Httl. apply bytes_eqb_eq in Hrd. apply name_eqb_ci_iff in Hn.
  apply keep_iff in Hk as (A & B & L).
  exists sig, ts, pay, plen, recs, x. repeat split; auto.
Qed.

(* answers for a name under key K's zone hold only records of a packet PUT under K with a
   signature verifying for K, under K's zone label and not of type SOA or NS *)
Lemma answer_subset_of_signed_zone O origins static ops n t rest K o zl :
  in_catalog origins (lower_name n) = true ->
  t <> T_SOA -> t <> T_NS -> t <> T_AXFR ->
  parse_name O origins (lower_name n) = Some (rest, K, o) ->
  z32 O K = Some zl ->
  forall r, In r (snd (snd (query O origins static (final O origins static ops) n t))) ->
    rtype r = t /\ Justified O (puts ops) K zl o r.
Proof.
  intros Hcat H1 H2 H3 Hp Hz r.
  pose proof (query_spec O origins static _ _ n t (inv_final O origins static ops)) as H.
  destruct (query O origins static (final O origins static ops) n t) as [s' [rc ans]]. destruct H as [_ H].
  cbn [obs_ok] in H. apply N.eqb_neq in H1, H2, H3. rewrite Hcat, H1, H2, H3, Hp, Hz in H.
  cbn [negb orb] in H. rewrite forallb_forall in H. intros Hr. eapply justified_Prop, H, Hr.
Qed.

Lemma final_resolve_from O origins static ops K qn t rs :
  snd (resolve O (final O origins static ops) K qn t) = Ok (Some rs) ->
  from_packet O (puts ops) K qn t rs.
Proof. apply resolve_spec, inv_final. Qed.

(* the same at ZoneStore::resolve, which every DNS front end is served from, for every name
   and type *)
Lemma store_resolve_subset_of_signed_zone O origins static ops K qn t zl rs :
  z32 O K = Some zl ->
  snd (resolve O (final O origins static ops) K qn t) = Ok (Some rs) ->
  t <> T_SOA /\ t <> T_NS /\
  forall ttl rd, In (ttl, rd) (snd rs) ->
    Justified O (puts ops) K zl [] (mkRR (lower_name (fst rs ++ [zl])) t ttl rd).
Proof.
  intros Ez E. apply final_resolve_from in E as H.
  destruct (from_packet_not_soa_ns _ _ _ _ _ _ H) as [A B]. repeat split; auto.
  intros ttl rd Hin.
  exact (proj2 (justified_Prop _ _ _ _ _ _ _ _ (from_packet_justified O _ K zl [] qn qn t rs ttl rd Ez H Hin))).
Qed.

Lemma store_never_serves_soa_ns O origins static ops K qn t rs :
  t = T_SOA \/ t = T_NS ->
  snd (resolve O (final O origins static ops) K qn t) <> Ok (Some rs).
Proof.
  intros Ht E. apply final_resolve_from, from_packet_not_soa_ns in E. tauto.
Qed.

Definition keyed (s : C37.state) : Prop :=
  forall k p, C37.tget (C37.store s) k = Some p -> C37.key p = k.

Lemma resolve_frame O s s' K qn qt :
  keyed s ->
  C37.tget (C37.store s') K = C37.tget (C37.store s) K ->
  C37.tget (C37.cache s') K = C37.tget (C37.cache s) K ->
  snd (resolve O s' K qn qt) = snd (resolve O s K qn qt).
Proof.
  intros Hk Es Ec. unfold resolve, cache_resolve. rewrite Ec, Es.
  destruct (match C37.tget (C37.cache s) K with Some z => cached_lookup O z qn qt | None => None end);
    [reflexivity|].
  destruct (C37.tget (C37.store s) K) as [p|] eqn:E; [|reflexivity].
  rewrite (Hk _ _ E), Ec.
  destruct (match C37.tget (C37.cache s) K with Some old => C37.ts p <? C37.ts old | None => false end);
    [reflexivity|].
  destruct (parse_h O (pay_id p)); [|reflexivity]. cbn [snd]. now rewrite !Proofs.C37.tget_tset, !N.eqb_refl.
Qed.

(* [query] reads the state only through the store's [resolve] at the key the name routes to *)
Lemma query_frame O origins static s s' n t :
  (forall rest K o, parse_name O origins (lower_name n) = Some (rest, K, o) ->
     snd (resolve O s' K rest t) = snd (resolve O s K rest t)) ->
  snd (query O origins static s' n t) = snd (query O origins static s n t).
Proof.
  intros H. unfold query.
  destruct (negb (in_catalog origins (lower_name n))); [reflexivity|].
  destruct (t =? T_SOA); [reflexivity|]. destruct (t =? T_AXFR); [reflexivity|].
  destruct (t =? T_NS); [reflexivity|].
  destruct (parse_name O origins (lower_name n)) as [[[rest K] o]|]; [|reflexivity].
  specialize (H rest K o eq_refl).
  destruct (resolve O s' K rest t) as [s1 r1], (resolve O s K rest t) as [s2 r2]. cbn [snd] in H. subst r2.
  destruct r1 as [[[setname recs]|]|e|]; try reflexivity. now destruct (z32 O K).
Qed.

Lemma put_frames_other_keys O origins static s k b n t :
  keyed s ->
  (forall rest o, parse_name O origins (lower_name n) <> Some (rest, k, o)) ->
  snd (query O origins static (fst (put O s k b)) n t) = snd (query O origins static s n t).
Proof.
  intros Hk Hn.
  destruct (put_cases O s k b) as [|sig ts pay plen _ _]; [reflexivity|].
  cbn [fst]. apply query_frame. intros rest K o Ep.
  assert (HK : K <> k) by (intros ->; exact (Hn rest o Ep)).
  apply resolve_frame; [exact Hk|apply Proofs.C37.publish_frames_other_keys, HK|].
  apply Proofs.C37.insert_cache_other, HK.
Qed.

Lemma reachable_keyed O origins static ops : keyed (final O origins static ops).
Proof. intros k p E. eapply legit_key, (proj1 (inv_final O origins static ops)), E. Qed.

Definition zA : label := str_bytes "kkkk".
Definition zB : label := str_bytes "bbbb".
Definition lbl (s : string) : label := str_bytes s.
Definition envX : env :=
  mkEnv [[lbl "dns"; lbl "test"]]
        [(0, zA); (1, zB)]
        [(0, (true, Some [mkRR [lbl "_iroh"; zA] 16 30 [1;97];
                          mkRR [lbl "_iroh"; zB] 16 30 [1;98];        (* other key's zone: dropped *)
                          mkRR [zA] 6 30 [9];                          (* SOA: dropped *)
                          mkRR [lbl "_IROH"; str_bytes "KKKK"] 16 60 [1;99]])); (* upper case: kept *)
         (1, (true, Some [mkRR [lbl "_iroh"; zB] 16 30 [1;100]]))]
        [(0, (0, 1, 0)); (1, (1, 1, 1))]
        [mkRR [lbl "dns"; lbl "test"] 6 1209600 [7]].

Definition qA := [lbl "_iroh"; zA; lbl "dns"; lbl "test"].
Definition qB := [lbl "_iroh"; zB; lbl "dns"; lbl "test"].

Example ex_serve_only_signed_zone :
  model (envX, [Put 0 (Full 0 1 0 80); Query qA 16; Query qB 16;
                Put 1 (Full 0 1 0 80);            (* key 0's packet replayed under key 1: signature fails *)
                Query qB 16;
                Put 1 (Full 1 1 1 60); Query qB 16; Query qA 16])
  = Ok [OPut 0;
        OAns 0 [mkRR qA 16 30 [1;97]; mkRR qA 16 60 [1;99]];
        OAns 3 [];
        OPut 4;
        OAns 3 [];
        OPut 0;
        OAns 0 [mkRR qB 16 30 [1;100]];
        OAns 0 [mkRR qA 16 30 [1;97]; mkRR qA 16 60 [1;99]]].
Proof. vm_compute. reflexivity. Qed.

(* the monitor can fail: serving key 1's zone from a packet only key 0 signed is rejected *)
Example ex_monitor_rejects :
  monitor (envX, [Put 0 (Full 0 1 0 80); Put 1 (Full 0 1 0 80); Query qB 16])
          (Ok [OPut 0; OPut 4; OAns 0 [mkRR qB 16 30 [1;98]]]) = false /\
  monitor (envX, [Put 0 (Full 0 1 0 80); Put 1 (Full 0 1 0 80); Query qB 16])
          (Ok [OPut 0; OPut 0; OAns 3 []]) = false.
Proof. split; vm_compute; reflexivity. Qed.

(* a packet whose only record is an NS record under the signer's zone is accepted, but the store
   hands out nothing for (name, NS); a single TXT record is handed out *)
Definition envY : env :=
  mkEnv [[lbl "dns"; lbl "test"]]
        [(0, zA); (1, zB)]
        [(0, (true, Some [mkRR [lbl "sub"; zA] 2 30 [9]]));
         (1, (true, Some [mkRR [lbl "sub"; zB] 16 30 [1;100]]))]
        [(0, (0, 1, 0)); (1, (1, 1, 1))]
        [mkRR [lbl "dns"; lbl "test"] 6 1209600 [7]].

Example ex_single_ns_record_not_served :
  model (envY, [Put 0 (Full 0 1 0 40); Resolve 0 [lbl "sub"] 2; Resolve 0 [lbl "SUB"] 16;
                Put 1 (Full 1 1 1 40); Resolve 1 [lbl "SUB"] 16; Resolve 1 [lbl "sub"] 2])
  = Ok [OPut 0; ORes 1 []; ORes 1 []; OPut 0; ORes 0 [mkRR [lbl "sub"] 16 30 [1;100]]; ORes 1 []].
Proof. vm_compute. reflexivity. Qed.

(* ... and the monitor rejects a store that hands the NS record out *)
Example ex_monitor_rejects_served_ns :
  monitor (envY, [Put 0 (Full 0 1 0 40); Resolve 0 [lbl "sub"] 2])
          (Ok [OPut 0; ORes 0 [mkRR [lbl "sub"] 2 30 [9]]]) = false /\
  monitor (envY, [Put 1 (Full 1 1 1 40); Resolve 1 [lbl "sub"] 16])
          (Ok [OPut 0; ORes 0 [mkRR [lbl "sub"] 16 30 [1;100]]]) = true.
Proof. split; vm_compute; reflexivity. Qed.
