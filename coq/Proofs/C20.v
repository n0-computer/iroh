(* C20 — bind_addr_with_opts.  From any builder state cs, requests rs are accepted iff per
   family the user-defined default route held in cs and those in rs number at most one and every
   prefix is valid (gspec); from an initial state this is spec, a function of the multiset rs. *)
From V Require Import Lib.Base Lib.Lists Model.C20.
From Coq Require Import Permutation.
Import C20.
Open Scope N_scope.

Definition hasdef (f : fam) (cs : list cfg) : bool := existsb (user_default f) cs.

Lemma hasdef_app f cs c : hasdef f (cs ++ [c]) = hasdef f cs || user_default f c.
Proof. unfold hasdef. rewrite existsb_app. cbn [existsb]. now rewrite orb_false_r. Qed.

Lemma ndef_cons f r rs :
  ndef f (r :: rs) = (Nat.b2n (is_default_route r && fam_eqb (rfam r) f) + ndef f rs)%nat.
Proof.
  unfold ndef. cbn [filter].
  destruct (is_default_route r && fam_eqb (rfam r) f); reflexivity.
Qed.

Definition fam_ok (f : fam) (cs : list cfg) (rs : list req) : bool :=
  (Nat.b2n (hasdef f cs) + ndef f rs <=? 1)%nat.
Definition gspec (cs : list cfg) (rs : list req) : bool :=
  fam_ok V4 cs rs && fam_ok V6 cs rs && forallb prefix_ok rs.

(* a request that passes the duplicate test moves from the requested to the held side *)
Lemma fam_ok_add f cs r rs :
  is_default_route r && hasdef (rfam r) cs = false ->
  fam_ok f (cs ++ [mkCfg (rfam r) (rprefix r) (is_default_route r) true]) rs = fam_ok f cs (r :: rs).
Proof.
  unfold fam_ok. rewrite hasdef_app, ndef_cons. unfold user_default.
  cbn [cdefault cfam cuser]. rewrite andb_true_r.
  destruct (is_default_route r); cbn [andb]; [|now rewrite orb_false_r].
  destruct (rfam r), f; cbn [fam_eqb]; intros E; rewrite ?E, ?orb_false_r; reflexivity.
Qed.

Lemma fam_ok_dup cs r rs :
  is_default_route r && hasdef (rfam r) cs = true -> fam_ok (rfam r) cs (r :: rs) = false.
Proof.
  intros E. apply andb_prop in E as [Ed Eh]. unfold fam_ok. rewrite ndef_cons, Ed, Eh.
  now destruct (rfam r).
Qed.

Lemma run_seq_gspec : forall rs cs k, (snd (run_seq cs rs k) =? 0) = gspec cs rs.
Proof.
  induction rs as [|r rs IH]; intros cs k; cbn [run_seq].
  - unfold gspec, fam_ok, ndef. cbn. now destruct (hasdef V4 cs), (hasdef V6 cs).
  - unfold builder_add, gspec. fold (hasdef (rfam r) cs). cbn [forallb].
    destruct (is_default_route r && hasdef (rfam r) cs) eqn:E1.
    { apply fam_ok_dup with (rs := rs) in E1.
      destruct (rfam r); rewrite E1; now rewrite ?andb_false_r. }
    destruct (prefix_ok r); cbn [negb andb]; [|now rewrite andb_false_r].
    rewrite IH. unfold gspec. now rewrite !fam_ok_add.
Qed.

Lemma accepts_from_init clear rs : accepts_from (init clear) rs = spec rs.
Proof.
  unfold accepts_from. rewrite run_seq_gspec. unfold gspec, spec, fam_ok.
  assert (H : forall f, hasdef f (init clear) = false) by (intros []; destruct clear; reflexivity).
  now rewrite !H.
Qed.

Definition is_default (r : req) : Prop := is_default_route r = true.
Definition valid_prefix (r : req) : Prop := rprefix r <= max_prefix (rfam r).

Lemma spec_iff rs :
  spec rs = true <->
  (ndef V4 rs <= 1)%nat /\ (ndef V6 rs <= 1)%nat /\ Forall valid_prefix rs.
Proof.
  unfold spec. apply andb_assoc_iff.
  apply andb_iff; [apply Nat.leb_le|].
  apply andb_iff; [apply Nat.leb_le|].
  apply forallb_Forall_iff. intros r. apply N.leb_le.
Qed.

(* the same whether or not clear_ip_transports was called first *)
Lemma accept_spec_clear rs clear :
  accepts_from (init clear) rs = true <->
  (ndef V4 rs <= 1)%nat /\ (ndef V6 rs <= 1)%nat /\ Forall valid_prefix rs.
Proof. rewrite accepts_from_init. apply spec_iff. Qed.

Lemma accept_spec rs :
  accepts rs = true <->
  (ndef V4 rs <= 1)%nat /\ (ndef V6 rs <= 1)%nat /\ Forall valid_prefix rs.
Proof. exact (accept_spec_clear rs false). Qed.

Lemma ndef_count f rs :
  ndef f rs = length (filter (fun r => is_default_route r && fam_eqb (rfam r) f) rs).
Proof. reflexivity. Qed.

Lemma ndef_perm f l l' : Permutation l l' -> ndef f l = ndef f l'.
Proof. intros H. apply Permutation_length, Permutation_filter, H. Qed.

Lemma spec_perm l l' : Permutation l l' -> spec l = spec l'.
Proof.
  intros H. unfold spec.
  now rewrite (ndef_perm V4 _ _ H), (ndef_perm V6 _ _ H), (forallb_perm _ _ _ H).
Qed.

Lemma accept_perm_clear clear l l' :
  Permutation l l' -> accepts_from (init clear) l = accepts_from (init clear) l'.
Proof. intros H. rewrite !accepts_from_init. now apply spec_perm. Qed.

Lemma accept_perm l l' : Permutation l l' -> accepts l = accepts l'.
Proof. exact (accept_perm_clear false l l'). Qed.

Lemma model_monitor : forall i, monitor i (model i) = true.
Proof.
  intros [[clear pre] d]. unfold monitor, model.
  induction (seqs (clear, pre, d)) as [|s ss IH]; cbn [map monitor_list]; [reflexivity|].
  rewrite IH, andb_true_r.
  fold (accepts_from (init clear) s). rewrite accepts_from_init.
  apply Bool.eqb_reflx.
Qed.

(* what the monitor says of one observed result: accepted (error code 0) iff spec holds *)
Definition observed_ok (s : list req) (r : N * N) : Prop :=
  snd r = 0 <-> ((ndef V4 s <= 1)%nat /\ (ndef V6 s <= 1)%nat /\ Forall valid_prefix s).

Lemma observed_ok_iff s r : Bool.eqb (N.eqb (snd r) 0) (spec s) = true <-> observed_ok s r.
Proof.
  unfold observed_ok. rewrite <- N.eqb_eq. apply eqb_iff, spec_iff.
Qed.

Lemma monitor_list_spec : forall ss o,
  monitor_list ss o = true <-> Forall2 observed_ok ss o.
Proof.
  induction ss as [|s ss IH]; intros [|r o]; cbn [monitor_list].
  - split; [constructor|reflexivity].
  - split; [discriminate|inversion 1].
  - split; [discriminate|inversion 1].
  - rewrite andb_true_iff, IH, observed_ok_iff.
    split; [intros []; now constructor|inversion 1; auto].
Qed.

Lemma monitor_spec i o : monitor i o = true <-> Forall2 observed_ok (seqs i) o.
Proof. apply monitor_list_spec. Qed.

(* unfixed iroh: the duplicate-default test lacks `opts.is_default_route() &&`, which makes
   acceptance depend on the order *)
Definition builder_add_old (cs : list cfg) (r : req) : res (list cfg) :=
  if existsb (user_default (rfam r)) cs then Err E_DUP
  else if negb (prefix_ok r) then Err E_PREFIX
  else Ok (cs ++ [mkCfg (rfam r) (rprefix r) (is_default_route r) true]).
Fixpoint accepts_old (cs : list cfg) (rs : list req) : bool :=
  match rs with
  | [] => true
  | r :: rs' => match builder_add_old cs r with Ok cs' => accepts_old cs' rs' | _ => false end
  end.

Example old_code_order_dependent :
  let a := mkReq V4 0 None in let b := mkReq V4 24 None in
  accepts_old (init false) [a; b] = false /\ accepts_old (init false) [b; a] = true /\
  spec [a; b] = true.
Proof. vm_compute. auto. Qed.

Example ex_accept_default_then_other :
  accepts [mkReq V4 0 None; mkReq V4 24 None; mkReq V6 64 (Some true); mkReq V6 0 (Some false)] = true.
Proof. reflexivity. Qed.
Example ex_reject_two_defaults : run_seq (init false) [mkReq V4 24 None; mkReq V4 0 None; mkReq V4 8 (Some true)] 0 = (2, E_DUP).
Proof. reflexivity. Qed.
Example ex_reject_prefix : run_seq (init false) [mkReq V6 128 None; mkReq V6 129 None] 0 = (1, E_PREFIX).
Proof. reflexivity. Qed.
Example ex_perm : Permutation [mkReq V4 0 None; mkReq V4 24 None] [mkReq V4 24 None; mkReq V4 0 None].
Proof. apply perm_swap. Qed.
Example ex_exts_size : length (exts 2) = 343%nat /\ length kinds = 18%nat.
Proof. vm_compute. auto. Qed.
