(* C19 — which transport an outgoing datagram is handed to.  The sorted socket lists matter only
   through `best` (find_sort, dispatch_spec); `dispatch_cases` says what each of the three outcomes
   means for the sockets in bind order (best_spec), and the rule theorems are read off it.  The
   mapped-address layer is C18's. *)
From Coq Require Import Sorted.
From V Require Import Lib.Base Lib.Lists Lib.Sorting Model.C18 Proofs.C18 Model.C19.
From V Require Import Lib.LiaBool.
Import C19.
Open Scope N_scope.
(* `C18.` is the prefix of two things: the module C18 of Model.C18 (`C18.step`, `C18.classify`) and
   the file Proofs.C18 (`C18.Inv`); no name is in both.  The lemmas of Proofs.C18 are called by their
   bare names. *)

(* the step of the model's `best`, which is a fold_right of this function written in place; named so
   that find_insert can say what inserting a does to the first match *)
Definition pick (P : sock -> bool) (a : sock) (acc : option sock) : option sock :=
  match acc with
  | Some s => if P a && (plen s <=? plen a) then Some a else Some s
  | None => if P a then Some a else None
  end.

Lemma best_cons P a l : best P (a :: l) = pick P a (best P l).
Proof. reflexivity. Qed.

(* insert puts a behind the longer prefixes and in front of the others, so a is the first
   match unless a longer one is *)
Lemma find_insert P a L : StronglySorted (fun a b => plen b <= plen a) L ->
  find P (insert leb_desc a L) = pick P a (find P L).
Proof.
  induction 1 as [|x r Hr IH Hx]; cbn [insert]; [cbn; now destruct (P a)|].
  unfold leb_desc at 1. destruct (plen x <=? plen a) eqn:E.
  - change (find P (a :: x :: r)) with (if P a then Some a else find P (x :: r)).
    destruct (find P (x :: r)) as [s|] eqn:F; cbn [pick]; destruct (P a); try reflexivity.
    (* the first match s of x :: r is x or behind it, so no longer than x *)
    assert (plen s <= plen x) as Hs.
    { apply find_some in F as [[->|Hin] _]; [lia|exact (proj1 (Forall_forall _ _) Hx s Hin)]. }
    cbn [andb]. destruct (plen s <=? plen a) eqn:E2; [reflexivity|lia].
  - cbn [find]. destruct (P x); [|exact IH]. cbn [pick]. now rewrite E, andb_false_r.
Qed.

Lemma find_sort P l : find P (bind_sort l) = best P l.
Proof.
  induction l as [|a l IH]; [reflexivity|].
  unfold bind_sort in *. cbn [sort].
  rewrite find_insert by apply (sort_desc_sorted plen).
  rewrite IH. reflexivity.
Qed.

(* `best` picks the longest matching prefix, among equals the earliest in the list *)
Lemma best_spec P l :
  match best P l with
  | Some s => exists l1 l2, l = l1 ++ s :: l2 /\ P s = true /\
      (forall x, In x l1 -> P x = true -> plen x < plen s) /\
      (forall x, In x l2 -> P x = true -> plen x <= plen s)
  | None => forall x, In x l -> P x = false
  end.
Proof.
  induction l as [|a l IH]; [intros x []|].
  rewrite best_cons. destruct (best P l) as [s0|]; cbn [pick].
  - destruct IH as (l1 & l2 & -> & Ps & H1 & H2).
    destruct (P a && (plen s0 <=? plen a)) eqn:C.
    + apply andb_prop in C as [Pa C]. exists [], (l1 ++ s0 :: l2). repeat split; auto; [intros x []|].
      intros x Hx Px. apply in_app_or in Hx as [Hx|[<-|Hx]];
        [specialize (H1 x Hx Px)|..|specialize (H2 x Hx Px)]; lia.
    + exists (a :: l1), l2. repeat split; auto.
      intros x [<-|Hx] Px; [|auto]. rewrite Px in C. cbn [andb] in C. lia.
  - destruct (P a) eqn:Pa.
    + exists [], l. repeat split; auto; [intros x []|].
      intros x Hx Px. rewrite (IH x Hx) in Px. discriminate.
    + intros x [<-|Hx]; auto.
Qed.

Lemma best_none P l : best P l = None <-> (forall x, In x l -> P x = false).
Proof.
  pose proof (best_spec P l) as S. destruct (best P l) as [s|]; [|tauto].
  split; [discriminate|]. intros H. destruct S as (l1 & l2 & -> & Ps & _).
  rewrite H in Ps by apply in_elt. discriminate.
Qed.

Lemma best_ext (P Q : sock -> bool) l : (forall s, P s = Q s) -> best P l = best Q l.
Proof.
  intros H. induction l as [|a l IH]; [reflexivity|]. rewrite !best_cons, IH. unfold pick. now rewrite H.
Qed.

Lemma bound_cons r rs : bound (r :: rs) = if rbindable r then rsock r :: bound rs else bound rs.
Proof. unfold bound. cbn [filter]. now destruct (rbindable r). Qed.

Lemma bind_loop_spec rs : forall h4 h6 a4 a6,
  match bind_loop rs h4 h6 a4 a6 with
  | Ok (r4, r6) =>
      r4 = a4 ++ filter (fun s => negb (v6 s)) (bound rs) /\ r6 = a6 ++ filter v6 (bound rs) /\
      ((if h4 then 1 else 0) + length (filter isdef (filter (fun s => negb (v6 s)) (bound rs))) <= 1)%nat /\
      ((if h6 then 1 else 0) + length (filter isdef (filter v6 (bound rs))) <= 1)%nat
  | Err e => e = 1 \/ e = 2 \/ e = 3
  | Panic => False
  end.
Proof.
  induction rs as [|r rs IH]; intros h4 h6 a4 a6; cbn [bind_loop].
  - cbn. rewrite !app_nil_r. destruct h4, h6; auto.
  - rewrite bound_cons.
    destruct (rbindable r); [cbn [filter]|destruct (rrequired r); [cbn; auto|apply IH]].
    destruct (v6 (rsock r)); cbn [negb filter]; destruct (isdef (rsock r)).
    (* goals 1 and 3 are the default routes, IPv6 and IPv4: refused when the family has one already *)
    1: destruct h6; [cbn; auto|]. 3: destruct h4; [cbn; auto|].
    (* otherwise the socket is appended to its family and the loop goes on *)
    all: change (rsock r :: filter ?f ?l) with ([rsock r] ++ filter f l); rewrite app_assoc; apply IH.
Qed.

Lemma bind_spec rs :
  match bind rs with
  | Ok t => forall d, fam_list t d = bind_sort (fam_bound rs d) /\
                      (length (filter isdef (fam_bound rs d)) <= 1)%nat
  | Err e => e = 1 \/ e = 2 \/ e = 3
  | Panic => False
  end.
Proof.
  unfold bind. pose proof (bind_loop_spec rs false false [] []) as S.
  destruct (bind_loop rs false false [] []) as [[a4 a6]|e|]; try exact S.
  destruct S as (-> & -> & L4 & L6). intros []; split; (reflexivity || assumption).
Qed.

Lemma dispatch_spec rs t src d : bind rs = Ok t -> dispatch t src d = spec_choice rs src d.
Proof.
  intros H. pose proof (bind_spec rs) as S. rewrite H in S.
  unfold dispatch, spec_choice. rewrite (proj1 (S d)), !find_sort. reflexivity.
Qed.

Lemma default_unique rs t d : bind rs = Ok t ->
  (length (filter isdef (fam_bound rs d)) <= 1)%nat.
Proof. intros H. pose proof (bind_spec rs) as S. rewrite H in S. apply S. Qed.

Definition family_of_dst (d : dst) : bool := match d with D4 _ => false | D6 _ _ => true end.
Definition family_of_ip (a : ip) : bool := match a with IP4 _ => false | IP6 _ => true end.
Definition ip_num (a : ip) : N := match a with IP4 n | IP6 n => n end.

Lemma fam_bound_family rs d s : In s (fam_bound rs d) -> v6 s = family_of_dst d.
Proof.
  destruct d; cbn [fam_bound]; rewrite filter_In; intros [_ H]; [now apply negb_true_iff in H|exact H].
Qed.

Lemma valid_send_dst d s : valid_send None d s = true <->
  match d with
  | D4 a => v6 s = false /\ contains s a = true
  | D6 a sc => v6 s = true /\ (contains s a = true \/ (link_local a = true /\ scope s = sc))
  end.
Proof.
  unfold valid_send. destruct d as [a|a sc].
  - apply andb_iff; [apply negb_true_iff|apply iff_refl].
  - apply andb_iff; [apply iff_refl|]. apply orb_iff; [apply iff_refl|].
    apply andb_iff; [apply iff_refl|apply N.eqb_eq].
Qed.

Lemma valid_send_src a d s : valid_send (Some a) d s = true <->
  v6 s = family_of_ip a /\ (addr s = 0 \/ addr s = ip_num a).
Proof.
  unfold valid_send. destruct a as [n|n].
  - apply andb_iff; [apply negb_true_iff|]. apply orb_iff; apply N.eqb_eq.
  - apply andb_iff; [apply iff_refl|]. apply orb_iff; apply N.eqb_eq.
Qed.

(* is_valid_default_addr looks at the family and the default flag only *)
Lemma valid_default_eq src d s : valid_default src d s =
  Bool.eqb (v6 s) (match src with Some a => family_of_ip a | None => family_of_dst d end) && isdef s.
Proof. unfold valid_default. destruct src as [[n|n]|], d, (v6 s); reflexivity. Qed.

Lemma dispatch_cases rs t src d : bind rs = Ok t -> let l := fam_bound rs d in
  match dispatch t src d with
  | SendOn i false => exists s l1 l2, l = l1 ++ s :: l2 /\ sid s = i /\ valid_send src d s = true /\
      (forall x, In x l1 -> valid_send src d x = true -> plen x < plen s) /\
      (forall x, In x l2 -> valid_send src d x = true -> plen x <= plen s)
  | SendOn i true => (forall s, In s l -> valid_send src d s = false) /\
      exists s, In s l /\ sid s = i /\ isdef s = true /\ valid_default src d s = true
  | Blackhole => (forall s, In s l -> valid_send src d s = false) /\
      (forall s, In s l -> isdef s = true -> valid_default src d s = false)
  end.
Proof.
  intros Hb l. rewrite (dispatch_spec rs t src d Hb). unfold spec_choice. fold l.
  pose proof (best_spec (valid_send src d) l) as S. destruct (best (valid_send src d) l) as [s|].
  { destruct S as (l1 & l2 & E & H). exists s, l1, l2. auto. }
  pose proof (best_spec isdef l) as D. destruct (best isdef l) as [s|].
  - destruct D as (l1 & l2 & E & Ds & _). assert (Hin : In s l) by (rewrite E; apply in_elt).
    destruct (valid_default src d s) eqn:V; (split; [exact S|]); [exists s; auto|].
    (* the default sockets of one family are valid defaults together *)
    intros s' Hin' D'. rewrite <- V, !valid_default_eq.
    now rewrite (fam_bound_family rs d s Hin), (fam_bound_family rs d s' Hin'), Ds, D'.
  - split; [exact S|]. intros s' Hin' D'. rewrite (D s' Hin') in D'. discriminate.
Qed.

Lemma dst_rule rs t d i : bind rs = Ok t ->
  dispatch t None d = SendOn i false ->
  exists s l1 l2, fam_bound rs d = l1 ++ s :: l2 /\ sid s = i /\
    valid_send None d s = true /\
    (forall x, In x l1 -> valid_send None d x = true -> plen x < plen s) /\
    (forall x, In x l2 -> valid_send None d x = true -> plen x <= plen s).
Proof.
  intros Hb E. pose proof (dispatch_cases rs t None d Hb) as C. now rewrite E in C.
Qed.

Lemma src_rule rs t a d i : bind rs = Ok t ->
  dispatch t (Some a) d = SendOn i false ->
  exists s, In s (fam_bound rs d) /\ sid s = i /\
    v6 s = family_of_ip a /\ family_of_ip a = family_of_dst d /\
    (addr s = 0 \/ addr s = ip_num a).
Proof.
  intros Hb E. pose proof (dispatch_cases rs t (Some a) d Hb) as C. rewrite E in C.
  destruct C as (s & l1 & l2 & El & <- & [Hv Ha]%valid_send_src & _).
  assert (Hin : In s (fam_bound rs d)) by (rewrite El; apply in_elt).
  apply fam_bound_family in Hin as Hf. exists s. repeat split; auto. congruence.
Qed.

Lemma match_not_passed_over rs t src d s : bind rs = Ok t ->
  In s (fam_bound rs d) -> valid_send src d s = true ->
  exists i, dispatch t src d = SendOn i false.
Proof.
  intros Hb Hin Hv. pose proof (dispatch_cases rs t src d Hb) as C.
  destruct (dispatch t src d) as [i [|]|]; [|eauto|]; destruct C as [Hn _];
    rewrite (Hn s Hin) in Hv; discriminate.
Qed.

Lemma default_fallback rs t src d : bind rs = Ok t ->
  (forall s, In s (fam_bound rs d) -> valid_send src d s = false) ->
  dispatch t src d =
    match best isdef (fam_bound rs d) with
    | Some s => if valid_default src d s then SendOn (sid s) true else Blackhole
    | None => Blackhole
    end.
Proof.
  intros Hb Hn. rewrite (dispatch_spec rs t src d Hb). unfold spec_choice.
  apply best_none in Hn. now rewrite Hn.
Qed.

Lemma default_is_default rs t src d i : bind rs = Ok t ->
  dispatch t src d = SendOn i true ->
  (forall s, In s (fam_bound rs d) -> valid_send src d s = false) /\
  exists s, In s (fam_bound rs d) /\ sid s = i /\ isdef s = true /\
    match src with Some a => family_of_ip a = family_of_dst d | None => True end.
Proof.
  intros Hb E. pose proof (dispatch_cases rs t src d Hb) as C. rewrite E in C.
  destruct C as (Hn & s & Hin & <- & Ds & V). split; [exact Hn|].
  apply fam_bound_family in Hin as Hf.
  rewrite valid_default_eq in V. apply andb_prop in V as [V%eqb_prop _].
  exists s. repeat split; auto. destruct src; [congruence|exact I].
Qed.

Lemma blackhole_iff_none rs t src d : bind rs = Ok t ->
  (dispatch t src d = Blackhole <->
   (forall s, In s (fam_bound rs d) -> valid_send src d s = false) /\
   (forall s, In s (fam_bound rs d) -> isdef s = true -> valid_default src d s = false)).
Proof.
  intros Hb. pose proof (dispatch_cases rs t src d Hb) as C. split; [now intros E; rewrite E in C|].
  intros [Hn Hd]. destruct (dispatch t src d) as [i [|]|]; [| |reflexivity].
  - destruct C as (_ & s & Hin & _ & Ds & V). rewrite (Hd s Hin Ds) in V. discriminate.
  - destruct C as (s & l1 & l2 & El & _ & V & _).
    rewrite Hn in V by (rewrite El; apply in_elt). discriminate.
Qed.

Lemma never_fatal_unless_closed closed st dest src :
  outer closed st dest src = HFatal <-> closed = true.
Proof.
  unfold outer. destruct closed; [tauto|]. split; [|discriminate].
  destruct (C18.classify dest) as [o|o|o|sa]; try destruct (C18.lookup_addr _ o); discriminate.
Qed.

Lemma quic_result_fatal h inner : quic_result h inner = 1 <-> h = HFatal.
Proof. destruct h; cbn; split; try discriminate; reflexivity. Qed.

Lemma unknown_mapped_dropped st dest src :
  match C18.classify dest with
  | C18.MMixed o => C18.lookup_addr (C18.mE st) o = None
  | C18.MRelay o => C18.lookup_addr (C18.mR st) o = None
  | C18.MCustom o => C18.lookup_addr (C18.mC st) o = None
  | C18.MIp _ => False
  end -> outer false st dest src = HDropped.
Proof.
  unfold outer. destruct (C18.classify dest); intros H; [now rewrite H..|destruct H].
Qed.

Lemma designated s kd key c s1 a ops p f sc src :
  C18.Inv s -> kd <> C18.KScript ->
  C18.step s (C18.OpGet kd key c) = (s1, C18.RAddr (C18.private_socket_addr a)) ->
  let st := fst (C18.run s1 ops) in
  match kd with
  | C18.KMixed => outer false st (C18.SV6 a p f sc) src = HRemote key
  | C18.KRelay => outer false st (C18.SV6 a p f sc) src = HPath (PRelay key)
  | _ => exists local, outer false st (C18.SV6 a p f sc) src = HPath (PCustom key local)
  end.
Proof.
  intros HI Hk H1 st. destruct (lookup_after_get _ _ _ _ _ _ ops HI H1) as [Ht Hl].
  fold st in Hl. unfold outer. rewrite (classify_typed kd a p f sc Hk Ht).
  destruct kd; cbn [mk_mapped C18.sel] in *; try congruence; rewrite Hl; eauto.
Qed.

Lemma action_eqb_refl a : action_eqb a a = true.
Proof. destruct a as [i b|]; cbn; [rewrite N.eqb_refl; now destruct b|reflexivity]. Qed.

(* with action_eqb_refl: the monitor's IP clause passes an observed choice iff it is the spec's *)
Lemma action_eqb_eq a b : action_eqb a b = true -> a = b.
Proof.
  destruct a as [i x|], b as [j y|]; cbn; try discriminate; [|reflexivity].
  intros H. apply andb_prop in H as [H1 H2]. apply N.eqb_eq in H1. apply eqb_prop in H2. congruence.
Qed.

Lemma custom_dispatch_ok id ss : forall i,
  Forall (fun j => i <= j /\ accepts ss id (j - i) = true) (fst (custom_dispatch i ss id)) /\
  increasing (fst (custom_dispatch i ss id)) = true.
Proof.
  induction ss as [|[acc beh] r IH]; intros i; cbn [custom_dispatch]; [split; [constructor|reflexivity]|].
  destruct (IH (i + 1)) as [F0 Inc].
  (* a position counted from i + 1 in r is the same sender counted from i in (acc, beh) :: r *)
  assert (F : Forall (fun j => i <= j /\ accepts ((acc, beh) :: r) id (j - i) = true)
                     (fst (custom_dispatch (i + 1) r id))).
  { eapply Forall_impl; [|exact F0]. intros j [Hj Ha]. split; [lia|]. unfold accepts in *.
    replace (j - i) with (N.succ (j - (i + 1))) by lia. now rewrite N2Nat.inj_succ. }
  destruct (existsb (N.eqb id) acc) eqn:E; [|now split].
  assert (Hi : i <= i /\ accepts ((acc, beh) :: r) id (i - i) = true).
  { split; [lia|]. unfold accepts. now rewrite N.sub_diag. }
  destruct (N.eqb beh 2); [|split; [repeat constructor; apply Hi|reflexivity]].
  destruct (custom_dispatch (i + 1) r id) as [l' c']. cbn [fst] in F0, F, Inc |- *.
  split; [now constructor|]. destruct F0 as [|b l'' [Hb _] _]; [reflexivity|].
  change (increasing (i :: b :: l'')) with ((i <? b) && increasing (b :: l'')).
  rewrite Inc, andb_true_r. apply N.ltb_lt. lia.
Qed.

Lemma custom_polled_ok customs id :
  forallb (accepts customs id) (fst (custom_dispatch 0 customs id)) = true /\
  increasing (fst (custom_dispatch 0 customs id)) = true.
Proof.
  destruct (custom_dispatch_ok id customs 0) as [F Inc]. split; [|exact Inc].
  apply forallb_forall. rewrite Forall_forall in F. intros j Hj.
  destruct (F j Hj) as [_ Ha]. now rewrite N.sub_0_r in Ha.
Qed.

Lemma send_ok_model rs t customs s : bind rs = Ok t ->
  send_ok rs customs s (do_send t customs s) = true.
Proof.
  intros Hb. destruct s as [src d|id|]; cbn [do_send send_ok]; [|pose proof (custom_polled_ok customs id) as [F Inc]|reflexivity].
  - rewrite (dispatch_spec rs t src d Hb). apply action_eqb_refl.
  - destruct (custom_dispatch 0 customs id) as [l c]. cbn [send_ok fst] in *.
    (* send_ok spells the body of `accepts` out, deliv_ok calls it: F fits by conversion *)
    apply andb_true_intro. split; [exact F|exact Inc].
Qed.

Lemma sends_ok_model rs t customs ss : bind rs = Ok t ->
  sends_ok rs customs ss (map (do_send t customs) ss) = true.
Proof.
  intros Hb. induction ss as [|s ss IH]; [reflexivity|].
  cbn [map sends_ok]. now rewrite send_ok_model, IH.
Qed.

Lemma opt_ip_eqb_refl s : opt_eqb ip_eqb s s = true.
Proof. destruct s as [[n|n]|]; cbn; now rewrite ?N.eqb_refl. Qed.

Lemma handed_eqb_refl h : handed_eqb h h = true.
Proof.
  destruct h as [| |k|[d s|k|k l]]; cbn; rewrite ?N.eqb_refl; try reflexivity.
  - assert (dst_eqb d d = true) as -> by (destruct d; cbn; now rewrite ?N.eqb_refl).
    apply opt_ip_eqb_refl.
  - apply opt_N_eqb_refl.
Qed.

Lemma outer_ok_model closed ops dest src :
  outer_ok closed ops dest (outer closed (fst (C18.run C18.init ops)) dest src) = true.
Proof.
  destruct closed; [reflexivity|]. unfold outer.
  destruct (C18.classify dest) as [o|o|o|sa] eqn:C; [..|unfold outer_ok; now rewrite C];
    destruct (C18.lookup_addr _ o) eqn:L; unfold outer_ok; rewrite C, L; cbn [negb andb];
    auto using handed_eqb_refl, N.eqb_refl.
Qed.

Lemma same_sock_refl a : same_sock a a = true.
Proof. destruct a as [i b|]; cbn; [apply N.eqb_refl|reflexivity]. Qed.

Lemma out_ok_model rs t customs relays inbox ops x :
  bind rs = Ok t -> scope_hit rs x = false ->
  out_ok rs customs ops x (out_send t customs relays inbox (fst (C18.run C18.init ops)) x) = true.
Proof.
  intros Hb Hk. destruct x as [[closed dest] src]. unfold out_send, out_ok.
  rewrite (outer_ok_model closed ops dest src). rewrite andb_true_r.
  set (st := fst (C18.run C18.init ops)).
  destruct closed; [reflexivity|].
  unfold scope_hit in Hk. cbn [negb andb] in Hk.
  unfold outer. cbn [negb andb].
  destruct (C18.classify dest) as [o|o|o|sa].
  1, 2: destruct (C18.lookup_addr _ o); reflexivity.
  - destruct (C18.lookup_addr (C18.mC st) o) as [k|]; [|reflexivity].
    cbn [quic_result deliv_of deliv_ok N.eqb andb].
    destruct (custom_polled_ok customs (custom_id k)) as [F I]. now rewrite F, I.
  - cbn [quic_result deliv_of deliv_ok N.eqb andb].
    rewrite opt_ip_eqb_refl. cbn [andb].
    rewrite (dispatch_spec rs t _ _ Hb).
    now apply negb_false_iff in Hk.
Qed.

Lemma outs_ok_model rs t customs relays inbox ops xs :
  bind rs = Ok t -> existsb (scope_hit rs) xs = false ->
  outs_ok rs customs ops xs
    (map (out_send t customs relays inbox (fst (C18.run C18.init ops))) xs) = true.
Proof.
  intros Hb. induction xs as [|x xs IH]; intros Hk; [reflexivity|].
  cbn [existsb] in Hk. apply orb_false_iff in Hk as [H1 H2].
  cbn [map outs_ok]. now rewrite (out_ok_model _ _ _ _ _ _ _ Hb H1), IH.
Qed.

Lemma model_satisfies_monitor i : known i = 0 -> monitor i (model i) = true.
Proof.
  destruct i as [s src d|rs customs sends|closed ops dest src|rs customs relays inbox ops sends];
    cbn [model monitor known]; intros Hk; [reflexivity| |apply outer_ok_model|];
    (* a failing bind reports code 1, 2 or 3, never the 99 the model keeps for a panic *)
    pose proof (bind_spec rs) as S; destruct (bind rs) as [t|e|] eqn:Hb; cbn [monitor];
    [|now destruct S as [->|[->| ->]]|destruct S| |now destruct S as [->|[->| ->]]|destruct S].
  - now apply sends_ok_model.
  - apply outs_ok_model; [exact Hb|]. destruct (existsb (scope_hit rs) sends); [discriminate Hk|reflexivity].
Qed.

Lemma scope_erased st o p f sc src :
  C18.classify (C18.SV6 o p f sc) = C18.MIp (C18.SV6 o p f sc) -> C18.is_v4_mapped o = false ->
  outer false st (C18.SV6 o p f sc) src = HPath (PIp (D6 (num o 0) 0) (option_map src_num src)).
Proof.
  intros Hc Hm. unfold outer. rewrite Hc. unfold dst_of, C18.canonical. now rewrite Hm.
Qed.

Lemma spec_choice_ext rs src d d' :
  (forall s, valid_send src d s = valid_send src d' s) ->
  (forall s, valid_default src d s = valid_default src d' s) ->
  fam_bound rs d = fam_bound rs d' ->
  spec_choice rs src d = spec_choice rs src d'.
Proof.
  intros H1 H2 H3. unfold spec_choice. rewrite H3.
  rewrite (best_ext _ _ _ H1). destruct (best (valid_send src d') (fam_bound rs d')); [reflexivity|].
  destruct (best isdef (fam_bound rs d')); [|reflexivity]. now rewrite H2.
Qed.

Lemma scope_hit_confined rs closed dest src :
  scope_hit rs (closed, dest, src) = true ->
  closed = false /\ src = None /\
  exists o p f sc, dest = C18.SV6 o p f sc /\ C18.is_v4_mapped o = false /\
    link_local (num o 0) = true /\ sc <> 0.
Proof.
  unfold scope_hit. intros [Hc H]%andb_prop.
  destruct closed; [discriminate|]. split; [reflexivity|].
  destruct (C18.classify dest) as [| | |sa] eqn:C; try discriminate. apply classify_sound in C as ->.
  (* dst_of is orig_dst except that it forgets the scope of an IPv6 destination *)
  destruct dest as [a p|o p f sc]; unfold dst_of, orig_dst, C18.canonical in H;
    [now rewrite same_sock_refl in H|].
  destruct (C18.is_v4_mapped o) eqn:Hm; [now rewrite same_sock_refl in H|].
  (* the dispatch chose differently for scope 0 than for scope sc, so some socket's validity
     test tells the two destinations apart *)
  assert (Hne : spec_choice rs (option_map src_num src) (D6 (num o 0) 0)
                <> spec_choice rs (option_map src_num src) (D6 (num o 0) sc)).
  { intros E. rewrite E, same_sock_refl in H. discriminate. }
  destruct src as [s|]; [destruct Hne; now apply spec_choice_ext|].
  split; [reflexivity|]. exists o, p, f, sc. repeat split; auto.
  - destruct (link_local (num o 0)) eqn:Hl; [reflexivity|].
    destruct Hne. apply spec_choice_ext; try reflexivity.
    intros x. cbn [option_map valid_send]. now rewrite Hl.
  - intros ->. now apply Hne.
Qed.

Definition sA := mkSock 0 false 2130706433 8 0 false.     (* 127.0.0.1/8 *)
Definition sB := mkSock 1 false 2130706689 24 0 true.     (* 127.0.1.1/24, default *)
Definition sC := mkSock 2 false 0 0 0 false.              (* 0.0.0.0/0 *)
Definition sD := mkSock 3 false 2130706690 24 0 false.    (* 127.0.1.2/24: ties with sB *)
Definition rq (s : sock) := mkReq s true true.

Example ex_bind :
  match bind [rq sA; rq sB; rq sC; rq sD] with
  | Ok t => map sid (t4 t) = [1; 3; 0; 2] /\ position (t4 t) 0 = Some 0
  | _ => False end.
Proof. vm_compute. auto. Qed.

Example ex_dispatch :
  match bind [rq sA; rq sB; rq sC; rq sD] with
  | Ok t =>
      dispatch t None (D4 2130706700) = SendOn 1 false /\        (* 127.0.1.12: /24, earlier bind wins *)
      dispatch t None (D4 2130707000) = SendOn 0 false /\        (* 127.0.2.56: /8 *)
      dispatch t None (D4 167772161) = SendOn 2 false /\         (* 10.0.0.1: /0 *)
      dispatch t (Some (IP4 2130706690)) (D4 167772161) = SendOn 3 false /\
      dispatch t (Some (IP6 1)) (D4 167772161) = Blackhole
  | _ => False end.
Proof. vm_compute. auto 10. Qed.

Example ex_default :
  match bind [rq sA; rq sB] with
  | Ok t => dispatch t None (D4 167772161) = SendOn 1 true /\
            dispatch t None (D6 1 0) = Blackhole
  | _ => False end.
Proof. vm_compute. auto. Qed.

Example ex_dup_default : bind [rq sB; rq (mkSock 5 false 0 0 0 true)] = Err E_DUP4.
Proof. reflexivity. Qed.

Example ex_skip_unbindable :
  match bind [mkReq sA false false; rq sC] with Ok t => map sid (t4 t) = [2] | _ => False end.
Proof. vm_compute. reflexivity. Qed.

(* Sender::poll_send erases the scope id: fe80::1%3 reaches the dispatch with scope 0 *)
Definition ll_octets : bytes := [254; 128; 0; 0; 0; 0; 0; 0; 0; 0; 0; 0; 0; 0; 0; 1].
Example ex_scope_dropped :
  outer false C18.init (C18.SV6 ll_octets 4433 0 3) None =
  HPath (PIp (D6 (num ll_octets 0) 0) None).
Proof. vm_compute. reflexivity. Qed.

Definition sL := mkSock 0 true (num ll_octets 0 + 9) 128 3 false.   (* fe80::a/128 on scope 3 *)
Definition sW := mkSock 1 true 0 0 0 true.                          (* [::]/0, default *)
Example ex_scope_matters :
  match bind [rq sL; rq sW] with
  | Ok t => dispatch t None (D6 (num ll_octets 0) 3) = SendOn 0 false /\
            dispatch t None (D6 (num ll_octets 0) 0) = SendOn 1 false
  | _ => False end.
Proof. vm_compute. auto. Qed.

(* [::1]/128 bound with scope id 1, nothing else; QUIC sends to fe80::1%1 without a source
   address: the rule designates that socket, the datagram is dropped *)
Definition sS1 := mkSock 0 true 1 128 1 false.
Definition wit_scope : input :=
  IOut [rq sS1] [] [] [] [] [(false, C18.SV6 ll_octets 9 0 1, None)].

Example ex_wit_scope_model :
  model wit_scope = OOut [] None [0] None
    [(0, HPath (PIp (D6 (num ll_octets 0) 0) None), DIp Blackhole)].
Proof. vm_compute. reflexivity. Qed.

Lemma known_scope_witness : exists i, known i = 1 /\ monitor i (model i) = false.
Proof.
  (* the model's output is ex_wit_scope_model: coqchk evaluates without the VM, and the model
     divides 128-bit addresses *)
  exists wit_scope. split; [|rewrite ex_wit_scope_model]; vm_compute; reflexivity.
Qed.

(* the reverse: [::1]/128 with scope id 0 is handed a datagram for fe80::1%1 *)
Example ex_wit_scope_reverse :
  let i := IOut [rq (mkSock 0 true 1 128 0 false)] [] [] [] []
                [(false, C18.SV6 ll_octets 9 0 1, None)] in
  known i = 1 /\ model i = OOut [] None [0] None
    [(0, HPath (PIp (D6 (num ll_octets 0) 0) None), DIp (SendOn 0 false))].
Proof. vm_compute. auto. Qed.

(* what a scope-preserving sender would do on the witness passes the monitor *)
Example ex_wit_scope_fixed_passes :
  monitor wit_scope (OOut [] None [0] None
    [(0, HPath (PIp (D6 (num ll_octets 0) 1) None), DIp (SendOn 0 false))]) = true.
Proof. vm_compute. reflexivity. Qed.
