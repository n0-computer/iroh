(* C08 — proofs: (A) the admission-window script model, (B) revocation over the C06
   registry transition system. *)
From V Require Import Lib.Base Lib.Lists Lib.Trace Model.C06 Proofs.C06 Model.C08.
Open Scope N_scope.

Module A.
Import C08.

(* [i_rev]: a revoked connection is past phase 1, neither parked nor served *)
Record Inv8 (s : state) : Prop := {
  i_nodup : NoDup (map num s);
  i_lt : forall c, In c s -> num c < len s;
  i_rev : forall c, In c s -> revoked c = true -> 1 < phase c
}.

(* The head test of [known_from]: the request names a connection still in its admission window
   (phase 0).  Such a request revokes a connection that is not gone, so [i_rev], which the probe
   clause of the monitor needs, is kept by [exec] only on steps outside the known class.
   [known_from] spells the test out in its own body: the two are tied by conversion, where
   [monitor_from_model] reads one as the other. *)
Definition step_known (s : state) (o : op) : bool :=
  match o with
  | ODisc id oc =>
      (match oc with Some k => k <? len s | None => true end) &&
      existsb (fun c => matches c id oc && (phase c =? 0)) s
  | ODisc2 id o1 o2 =>
      (inrange s o1 && inrange s o2) &&
      existsb (fun c => matches2 c id o1 o2 && (phase c =? 0)) s
  | _ => false
  end.

Lemma Inv8_nil : Inv8 [].
Proof. constructor; cbn; try constructor; intros; contradiction. Qed.

Lemma Inv8_app s id ph : Inv8 s -> Inv8 (s ++ [mkC (len s) id ph false false]).
Proof.
  intros [I1 I2 I3]. constructor.
  - rewrite map_app. cbn. apply NoDup_snoc.
    + exact I1.
    + intros Hin. apply in_map_iff in Hin as (c & Hc & Hin). apply I2 in Hin. lia.
  - intros c Hin. rewrite len_app, len_cons, len_nil. apply in_app_or in Hin as [Hin|[<-|[]]]; [apply I2 in Hin; lia|cbn; lia].
  - intros c Hin. apply in_app_or in Hin as [Hin|[<-|[]]]; [now apply I3|cbn; discriminate].
Qed.

Lemma Inv8_map s (f : conn -> conn) :
  Inv8 s -> (forall c, num (f c) = num c) ->
  (forall c, In c s -> revoked (f c) = true -> 1 < phase (f c)) ->
  Inv8 (map f s).
Proof.
  intros [I1 I2 I3] Hn Hr.
  assert (Hm : map num (map f s) = map num s) by (rewrite map_map; apply map_ext; exact Hn).
  constructor.
  - now rewrite Hm.
  - intros c Hin. apply in_map_iff in Hin as (c0 & <- & Hin). rewrite Hn, len_map. now apply I2.
  - intros c Hin. apply in_map_iff in Hin as (c0 & <- & Hin). now apply Hr.
Qed.

(* a disconnect request, for any way [m] of naming connections none of which is parked *)
Lemma Inv8_revoke s (m : conn -> bool) :
  Inv8 s -> existsb (fun c => m c && (phase c =? 0)) s = false ->
  Inv8 (map (fun c => if m c
                      then mkC (num c) (cid c) (if phase c =? 1 then 2 else phase c) true false
                      else mkC (num c) (cid c) (phase c) (revoked c) false) s).
Proof.
  intros I Hk. apply Inv8_map; [assumption| |].
  - intros c. now destruct (m c).
  - intros c Hin. destruct (m c) eqn:Em; cbn; [|now apply (i_rev s I)].
    intros _. destruct (phase c =? 1) eqn:E1; [reflexivity|].
    assert (H0 : (phase c =? 0) = false).
    { destruct (phase c =? 0) eqn:E0; [|reflexivity].
      assert (existsb (fun c => m c && (phase c =? 0)) s = true); [|congruence].
      apply existsb_exists. exists c. split; [assumption|]. now rewrite Em, E0. }
    apply N.eqb_neq in E1, H0. lia.
Qed.

Lemma exec_inv s o : Inv8 s -> step_known s o = false -> Inv8 (fst (exec s o)).
Proof.
  intros I Hk. destruct o as [id|k|id|id oc|k|k|id o1 o2]; cbn [exec].
  - now apply Inv8_app.
  - destruct (existsb _ s); cbn [fst]; [|assumption].
    apply Inv8_map; [assumption| |].
    + intros c. now destruct (_ && _).
    + intros c Hin. destruct ((num c =? k) && (phase c =? 0)) eqn:E; cbn; [|now apply (i_rev s I)].
      intros Hr. apply (i_rev s I c Hin) in Hr. apply andb_prop in E as [_ E]. apply N.eqb_eq in E. lia.
  - now apply Inv8_app.
  - cbn [step_known] in Hk. destruct (match oc with Some k => k <? len s | None => true end); cbn [fst]; [|assumption].
    now apply (Inv8_revoke s (fun c => matches c id oc)).
  - assumption.
  - destruct (find _ s) as [t|]; cbn [fst]; [|assumption].
    apply Inv8_map; [assumption| |].
    + intros c. now destruct (_ && _).
    + intros c Hin. destruct (_ && _); cbn; now apply (i_rev s I).
  - cbn [step_known] in Hk. destruct (inrange s o1 && inrange s o2); cbn [fst]; [|assumption].
    now apply (Inv8_revoke s (fun c => matches2 c id o1 o2)).
Qed.

Lemma num_unique s c c' : Inv8 s -> In c s -> In c' s -> num c = num c' -> c = c'.
Proof.
  intros [I1 _ _]. revert I1. induction s as [|x s IH]; cbn; [contradiction|].
  intros Hnd. inversion Hnd as [|? ? Hn Hd]. subst.
  intros [->|Hc] [->|Hc'] E; auto.
  - exfalso. apply Hn. rewrite E. now apply in_map.
  - exfalso. apply Hn. rewrite <- E. now apply in_map.
Qed.

Lemma probe_ok_spec s k r :
  probe_ok s k r = true <->
  forall c, In c s -> num c = k ->
    (revoked c = true -> r = 0) /\ (revoked c = false -> phase c = 1 -> r = 1).
Proof.
  unfold probe_ok. apply forallb_iff. intros c. apply impb_iff; [apply N.eqb_eq|].
  apply ite_iff; [apply N.eqb_eq|]. apply impb_iff; [apply N.eqb_eq|]. apply N.eqb_eq.
Qed.

Lemma probe_ok_model s k : Inv8 s -> probe_ok s k (snd (exec s (OProbe k))) = true.
Proof.
  intros I. apply probe_ok_spec. intros c Hin Ek. cbn [exec snd]. split.
  - intros Er. apply (i_rev s I c Hin) in Er. destruct (existsb _ s) eqn:Ex; [|reflexivity].
    apply existsb_exists in Ex as (c' & Hin' & E). apply andb_prop in E as [E1 E2].
    apply N.eqb_eq in E1, E2. assert (c = c') by (eapply num_unique; eauto; congruence). subst c'. lia.
  - intros _ E1. replace (existsb _ s) with true; [reflexivity|]. symmetry. apply existsb_exists.
    exists c. split; [assumption|]. apply N.eqb_eq in Ek. now rewrite Ek, E1, N.eqb_refl.
Qed.

Lemma go_cons s o l : go s (o :: l) = (s, snd (exec s o)) :: go (fst (exec s o)) l.
Proof. cbn [go]. now destruct (exec s o). Qed.

Lemma named_gone_spec (m : conn -> bool) s still :
  forallb (fun c => if m c && (phase c =? 1) then negb (existsb (N.eqb (num c)) still) else true) s = true <->
  forall c, In c s -> m c = true -> phase c = 1 -> ~ In (num c) still.
Proof.
  apply forallb_iff. intros c. apply impb_and.
  apply impb_iff; [apply iff_refl|]. apply impb_iff; [apply N.eqb_eq|]. apply negb_iff, existsb_eqb_in.
Qed.

Lemma disc_ok_spec s id o still :
  disc_ok s id o still = true <->
  forall c, In c s -> matches c id o = true -> phase c = 1 -> ~ In (num c) still.
Proof. apply (named_gone_spec (fun c => matches c id o)). Qed.

Lemma disc_ok2_spec s id o1 o2 still :
  disc_ok2 s id o1 o2 still = true <->
  forall c, In c s -> matches2 c id o1 o2 = true -> phase c = 1 -> ~ In (num c) still.
Proof. apply (named_gone_spec (fun c => matches2 c id o1 o2)). Qed.

Lemma monitor_from_model l : forall s, Inv8 s -> known_from s l = false ->
  monitor_from s l (map (fun p => (snd p, @nil N)) (go s l)) = true.
Proof.
  induction l as [|o l IH]; intros s I Hk; [reflexivity|].
  cbn [known_from] in Hk. apply orb_false_iff in Hk as [Hk1 Hk2].
  assert (Hs : step_known s o = false) by (destruct o; exact Hk1 || reflexivity).
  rewrite go_cons. cbn [map snd fst monitor_from]. rewrite IH; [|now apply exec_inv|assumption].
  rewrite andb_true_r. destruct o; try reflexivity.
  - apply disc_ok_spec. intros c _ _ _ [].
  - now apply probe_ok_model.
  - apply disc_ok2_spec. intros c _ _ _ [].
Qed.

Lemma model_monitor i : known i = 0 -> monitor i (model i) = true.
Proof.
  unfold known, monitor, model. destruct (known_from [] i) eqn:E; [discriminate|]. intros _.
  apply monitor_from_model; [apply Inv8_nil|assumption].
Qed.

(* the known class is inhabited and the monitor fails there: admitted, revoked while the
   accept is parked (disconnect returns false), then registered and served *)
Definition witness : input := [OAdmit 0; ODisc 0 (Some 0); ORelease 0; OProbe 0].
Lemma known_witness : known witness = 1 /\ monitor witness (model witness) = false /\
                      model witness = Ok [(1, []); (1, []); (1, []); (1, [])].
Proof. repeat split. Qed.

(* A disconnect request stops every registered connection it names whether or not traffic is
   piled up for it (busy): the actor loop is the biased select, token before queues. *)
Lemma busy_revoked_stops s id o c :
  In c s -> matches c id o = true -> phase c = 1 ->
  match o with Some k => k <? len s | None => true end = true ->
  In (mkC (num c) (cid c) 2 true false) (fst (exec s (ODisc id o))) /\
  snd (exec s (ODisc id o)) = 2.
Proof.
  intros Hin Hm Hp Hg. cbn [exec]. rewrite Hg. cbn [fst snd]. split.
  - apply in_map_iff. exists c. split; [|assumption]. rewrite Hm, Hp. reflexivity.
  - replace (existsb _ s) with true; [reflexivity|]. symmetry. apply existsb_exists.
    exists c. split; [assumption|]. now rewrite Hm, Hp.
Qed.

(* non-vacuity: a busy registered connection, revoked by endpoint id *)
Example busy_example :
  model [OConnect 0; OFlood 0; ODisc 0 None; OProbe 0] = Ok [(1, []); (1, []); (2, []); (0, [])] /\
  tag [OConnect 0; OFlood 0; ODisc 0 None; OProbe 0] = 4.
Proof. split; reflexivity. Qed.

(* two requests back to back: every registered connection that either names is stopped — in
   particular a displaced duplicate that only the second names (by endpoint id) after the first
   cancelled the active connection — and each reports what it found in the registry *)
Lemma back_to_back_stops s id o1 o2 c :
  In c s -> matches2 c id o1 o2 = true -> phase c = 1 ->
  inrange s o1 = true -> inrange s o2 = true ->
  In (mkC (num c) (cid c) 2 true false) (fst (exec s (ODisc2 id o1 o2))) /\
  snd (exec s (ODisc2 id o1 o2)) = 10 + 2 * found s id o1 + found s id o2.
Proof.
  intros Hin Hm Hp H1 H2. cbn [exec]. rewrite H1, H2. cbn [andb fst snd]. split; [|reflexivity].
  apply in_map_iff. exists c. split; [|assumption]. rewrite Hm, Hp. reflexivity.
Qed.

Example back_to_back_example :
  model [OConnect 0; OConnect 0; ODisc2 0 (Some 1) None; OProbe 0] =
    Ok [(1, []); (1, []); (13, []); (0, [])] /\
  tag [OConnect 0; OConnect 0; ODisc2 0 (Some 1) None; OProbe 0] = 5.
Proof. split; reflexivity. Qed.
End A.

Module B.
Import C06.

(* a disconnect request cancels every registered connection it names, and reports it *)
Lemma disconnect_cancels_registered s id o s' c :
  step true s (Disconnect id o) = Some s' ->
  In c (reg s id) -> (o = None \/ o = Some c) ->
  cancelled (conns s' c) = true /\ disc_ret s id o = true.
Proof.
  intros H Hin Ho. cbn [step] in H. unfold disc_ret. pose proof (proj2 (existsb_eqb_in c _) Hin) as Hex.
  destruct Ho as [->| ->].
  - injection H as <-. rewrite fold_cancel_conns, Hex. split; [reflexivity|]. now destruct (reg s id).
  - rewrite Hex in H. injection H as <-. cbn. rewrite fupd_same. split; [reflexivity|].
    destruct (reg s id); [contradiction|exact Hex].
Qed.

(* ... and touches nothing else; a touched connection only has its token cancelled *)
Lemma disconnect_only_cancels s id o s' :
  step true s (Disconnect id o) = Some s' ->
  (forall i, reg s' i = reg s i) /\ sent s' = sent s /\ pending s' = pending s /\ nconns s' = nconns s /\
  forall c, conns s' c = conns s c \/
            (In c (reg s id) /\ (o = None \/ o = Some c) /\ conns s' c = with_cancelled (conns s c) true).
Proof.
  intros H. destruct (step_frame _ _ _ H) as (_ & hn & _ & hr & hp & hs).
  split; [intros i; now rewrite hr|]. split; [assumption|]. split; [assumption|]. split; [assumption|]. intros c.
  cbn [step] in H. destruct o as [c0|].
  - destruct (existsb (N.eqb c0) (reg s id)) eqn:Ex; injection H as <-; [|now left].
    apply existsb_eqb_in in Ex. cbn. destruct (N.eq_dec c c0) as [->|Hne]; [right|left; now apply fupd_other].
    rewrite fupd_same. auto.
  - injection H as <-. rewrite fold_cancel_conns.
    destruct (existsb (N.eqb c) (reg s id)) eqn:Ex; [right|now left]. apply existsb_eqb_in in Ex. auto.
Qed.

Lemma cancelled_is_permanent s e s' c :
  c < nconns s -> step true s e = Some s' ->
  cancelled (conns s c) = true -> cancelled (conns s' c) = true.
Proof. intros Hc H. apply (step_flags s e s' c H). intros id v _. lia. Qed.

Lemma run_cancelled tr s s' c :
  c < nconns s /\ cancelled (conns s c) = true -> run true s tr = Some s' ->
  c < nconns s' /\ cancelled (conns s' c) = true.
Proof.
  rewrite run_orun. apply (orun_inv (step true) (fun s => c < nconns s /\ cancelled (conns s c) = true)).
  intros t e t' [Hc Hcan] E.
  split; [pose proof (step_nconns _ _ _ E); lia|eapply cancelled_is_permanent; eassumption].
Qed.

Lemma disconnect_stops_registered s1 tr2 s2 id o c :
  Inv s1 -> In c (reg s1 id) -> (o = None \/ o = Some c) ->
  run true s1 (Disconnect id o :: tr2) = Some s2 ->
  disc_ret s1 id o = true /\ cancelled (conns s2 c) = true.
Proof.
  intros I Hin Ho H2. cbn [run] in H2.
  destruct (step true s1 (Disconnect id o)) as [s'|] eqn:E; [|discriminate].
  destruct (disconnect_cancels_registered _ _ _ _ _ E Hin Ho) as [h1 h2]. split; [assumption|].
  pose proof (registered_lt s1 id c I Hin) as Hc.
  apply (run_cancelled tr2 s' s2 c); [|assumption]. split; [pose proof (step_nconns _ _ _ E); lia|assumption].
Qed.

(* in every interleaving, a disconnect request that names a connection registered at that moment
   (by its connection id, or by its endpoint id) returns true and leaves that connection
   cancelled for the rest of the run *)
Lemma revoked_stops cap tr1 tr2 s1 s2 id o c :
  run true (init cap) tr1 = Some s1 ->
  In c (reg s1 id) -> (o = None \/ o = Some c) ->
  run true s1 (Disconnect id o :: tr2) = Some s2 ->
  disc_ret s1 id o = true /\ cancelled (conns s2 c) = true.
Proof. intros H1. apply disconnect_stops_registered, (run_Inv _ _ _ H1). Qed.

(* what "cancelled" means for service: the actor's select is biased and polls the token first
   (client.rs:382-390), so in the scripts' scheduler ([settle]) a cancelled running connection
   leaves its loop before any queued frame is written *)
Lemma cancelled_exits_first s c :
  c < nconns s -> cstate (conns s c) = Running -> cancelled (conns s c) = true ->
  cstate (conns (settle_exits s) c) = Exited.
Proof.
  intros Hc Hr Hcan. destruct (settle_exits_spec s) as [_ H]. rewrite H, crange_existsb.
  apply N.ltb_lt in Hc. rewrite Hc. unfold exit_conn. now rewrite Hr, Hcan.
Qed.

(* ... with whatever is queued for it: after a full scheduler round nothing of it has been
   written to its client, and both queues are as they were *)
Lemma cancelled_exits_before_queues s c :
  c < nconns s -> cstate (conns s c) = Running -> cancelled (conns s c) = true ->
  cstate (conns (settle s) c) = Exited /\ got (conns (settle s) c) = got (conns s c) /\
  pq (conns (settle s) c) = pq (conns s c) /\ mq (conns (settle s) c) = mq (conns s c).
Proof.
  intros Hc Hr Hcan. apply N.ltb_lt in Hc. destruct (settle_spec s) as [_ ->].
  rewrite Hc, settle_conn. unfold stays. rewrite Hr, Hcan. repeat split.
Qed.

(* non-vacuity: a full packet queue at the moment of the request *)
Example busy_cancelled_example :
  exists s, run true (init 2)
    [Spawn 0 2; Insert 0; Spawn 1 2; Insert 1; Send 1 0 7; Send 1 0 8; Disconnect 0 None] = Some s /\
    pq (conns s 0) = [FData 1 7; FData 1 8] /\ cancelled (conns s 0) = true /\
    cstate (conns (settle s) 0) = Exited /\ got (conns (settle s) 0) = [] /\
    cstate (conns (settle s) 1) = Running.
Proof. apply some_ex. vm_compute. repeat split. Qed.

(* The finding: a request that arrives before the connection is registered finds nothing and
   returns false; the connection registers afterwards, is active, runs, and is not cancelled. *)
Definition early_revocation : list event :=
  [Spawn 0 2; Insert 0;            (* some other endpoint's connection, to show it is unaffected *)
   Disconnect 1 (Some 1);          (* connection 1 of endpoint 1 is admitted but not yet registered *)
   Spawn 1 2; Insert 1].
Lemma early_revocation_missed :
  exists s, run true (init 3) early_revocation = Some s /\
            disc_ret (init 3) 1 (Some 1) = false /\
            reg s 1 = [1] /\ cstate (conns s 1) = Running /\ cancelled (conns s 1) = false.
Proof. apply some_ex. vm_compute. repeat split. Qed.

Lemma disconnect_misses_unregistered s id c :
  ~ In c (reg s id) ->
  step true s (Disconnect id (Some c)) = Some s /\ disc_ret s id (Some c) = false.
Proof.
  intros Hn. apply existsb_eqb_notin in Hn. cbn [step]. unfold disc_ret.
  rewrite Hn. split; [reflexivity|]. now destruct (reg s id).
Qed.
End B.
