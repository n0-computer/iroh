(* C26 — proofs.  Lock level: a set_status call holds the writer mutex between its read and its
   write, and set and clear wait for it, so the URL it read is still advertised when it writes.
   That is Inv; it passes every step by one frame lemma, inv_frame.  (That two set_status calls
   exclude each other is not needed.)  Actor level: the register's URL is the latest choice
   because every call site of a connection actor uses the guarded writer. *)
From V Require Import Lib.Base Lib.Lists Lib.Trace Model.C26.
Import C26.
Open Scope N_scope.

Lemma url_of_write pref : url_of (write_of pref) = pref.
Proof. destruct pref; reflexivity. Qed.

Lemma snap_ok_iff w c : snap_ok (w, c) = true <-> url_of w = c.
Proof. apply opt_N_eqb_iff. Qed.

(* the program counters a call of each kind passes through *)
Definition typed (o : option op) (p : pc) : bool :=
  match o, p with
  | Some _, Idle | Some _, Done => true
  | Some (Choose _), RGot _ => true
  | Some (SetStatus _ _), SGot => true
  | _, _ => false
  end.

Section Inv.
Variable prog : list op.

Record Inv (s : st) : Prop := mkInv {
  I_typed : forall t p, nth_error (pcs s) t = Some p -> typed (nth_error prog t) p = true;
  I_guard : forall t u c, nth_error prog t = Some (SetStatus u c) ->
              nth_error (pcs s) t = Some SGot -> url_of (watch s) = Some u;
  I_url : url_of (watch s) = chosen s
}.

Lemma nobodyW_spec s : nobodyW s = true -> forall t p, nth_error (pcs s) t = Some p -> holdsW p = false.
Proof. intros H t p Hp. apply negb_true_iff. exact (proj1 (forallb_nth_iff _ _) H t p Hp). Qed.

(* call t goes to p' and the register to w': the URL may change only while nobody is between
   read and write *)
Lemma inv_frame s t o p' w' c' :
  Inv s -> nth_error prog t = Some o -> typed (Some o) p' = true ->
  url_of w' = c' ->
  url_of w' = url_of (watch s) \/ nobodyW s = true ->
  (forall u c, o = SetStatus u c -> p' = SGot -> url_of w' = Some u) ->
  Inv (mkSt w' c' (upd t p' (pcs s))).
Proof.
  intros [It Ig Iu] Hop Hty Hc Hurl Hself.
  constructor; cbn [pcs watch chosen]; [| |exact Hc].
  - intros t0 p0 [[-> ->]|[_ H0]]%nth_error_set_nth; [now rewrite Hop|eauto].
  - intros t0 u c Hop0 [[-> <-]|[_ H0]]%nth_error_set_nth.
    + apply (Hself u c); congruence.
    + destruct Hurl as [->|En]; [eauto|discriminate (nobodyW_spec _ En t0 _ H0)].
Qed.

Lemma inv_set_pc s t o p' :
  Inv s -> nth_error prog t = Some o -> typed (Some o) p' = true -> p' <> SGot ->
  Inv (mkSt (watch s) (chosen s) (upd t p' (pcs s))).
Proof.
  intros HI Hop Hty Hn. apply (inv_frame s t o); auto; [apply HI|contradiction].
Qed.

Lemma step_inv s t s' : Inv s -> step prog s t = Some s' -> Inv s'.
Proof.
  intros HI Hs. unfold step, step_gen in Hs. cbn [negb orb] in Hs.
  destruct (nth_error prog t) as [o|] eqn:Hop; [|discriminate].
  destruct (nth_error (pcs s) t) as [p|] eqn:Hp; [|destruct o; discriminate].
  pose proof (I_url _ HI) as Iu.
  destruct o as [pref|u c]; destruct p as [|prev| |]; try discriminate.
  - (* on_network_change: get *)
    injection Hs as <-. apply (inv_set_pc s t _ _ HI Hop); [reflexivity|discriminate].
  - (* on_network_change: compare, set / clear *)
    destruct (opt_eqb N.eqb pref prev).
    + injection Hs as <-. apply (inv_set_pc s t _ _ HI Hop); [reflexivity|discriminate].
    + destruct (nobodyW s) eqn:En; [|discriminate]. injection Hs as <-.
      apply (inv_frame s t _ _ _ _ HI Hop); [reflexivity|apply url_of_write|now right|discriminate].
  - (* set_status: lock, get, compare *)
    destruct (nobodyW s); [|discriminate].
    destruct (opt_eqb N.eqb (url_of (watch s)) (Some u)) eqn:E.
    + injection Hs as <-. apply opt_N_eqb_iff in E.
      apply (inv_frame s t _ _ _ _ HI Hop); [reflexivity|exact Iu|now left|congruence].
    + injection Hs as <-. apply (inv_set_pc s t _ _ HI Hop); [reflexivity|discriminate].
  - (* set_status: set, unlock; the URL it writes is the one it read, which is still there *)
    injection Hs as <-. pose proof (I_guard _ HI t u c Hop Hp) as Hg.
    apply (inv_frame s t _ _ _ _ HI Hop); [reflexivity|now rewrite <- Iu|now left|discriminate].
Qed.

Lemma init_inv : Inv (init prog).
Proof.
  constructor.
  - intros t p [-> [o ->]]%nth_error_map_const. now destruct o.
  - intros t u c _ [[=] _]%nth_error_map_const.
  - reflexivity.
Qed.

Lemma reachable_inv sched s : run (step prog) (init prog) sched = Some s -> Inv s.
Proof. exact (orun_inv (step prog) Inv step_inv sched _ s init_inv). Qed.

Lemma inv_snap_ok s : Inv s -> snap_ok (snap s) = true.
Proof. intros HI. apply snap_ok_iff, (I_url _ HI). Qed.

Lemma run_ev_snaps evs : forall s l s', Inv s -> run_ev (step prog) s evs = Some (l, s') ->
  forallb snap_ok l = true.
Proof.
  induction evs as [|e r IH]; intros s l s' HI H; cbn [run_ev] in H.
  - injection H as <- _. reflexivity.
  - destruct e as [t|t].
    + destruct (step prog s t) as [s1|] eqn:E; [|discriminate].
      pose proof (step_inv _ _ _ HI E) as HI1.
      destruct (run_ev (step prog) s1 r) as [[l1 s2]|] eqn:Er; [|discriminate].
      injection H as <- _. cbn [forallb]. now rewrite (IH _ _ _ HI1 Er), inv_snap_ok.
    + destruct (is_done (pc_of s t)); [discriminate|].
      destruct (step prog s t); [discriminate|].
      destruct (run_ev (step prog) s r) as [[l1 s2]|] eqn:Er; [|discriminate].
      injection H as <- _. cbn [forallb]. now rewrite (IH _ _ _ HI Er), inv_snap_ok.
Qed.

(* with the mutex free any unfinished call can move, otherwise its holder can *)
Lemma progress s :
  (forall t p, nth_error (pcs s) t = Some p -> typed (nth_error prog t) p = true) ->
  quiescent s = false -> exists t s', step prog s t = Some s'.
Proof.
  intros HT Hq. unfold step, step_gen. cbn [negb orb].
  destruct (nobodyW s) eqn:En.
  - apply forallb_false_nth in Hq as (t & p & Hp & Hnd). exists t.
    pose proof (HT t p Hp) as Hty. rewrite Hp.
    destruct (nth_error prog t) as [[pref|u c]|]; destruct p as [|prev| |]; try discriminate; eauto.
    + destruct (opt_eqb N.eqb pref prev); eauto.
    + destruct (opt_eqb N.eqb (url_of (watch s)) (Some u)); eauto.
  - apply forallb_false_nth in En as (t & p & Hp & Hh). exists t.
    destruct p; try discriminate.
    pose proof (HT t SGot Hp) as Hty. rewrite Hp.
    destruct (nth_error prog t) as [[pref|u c]|]; try discriminate. eauto.
Qed.

End Inv.

Theorem demoted_never_published prog sched s :
  run (step prog) (init prog) sched = Some s -> url_of (watch s) = chosen s.
Proof. intros H. apply (I_url prog). eapply reachable_inv; eauto. Qed.

Theorem status_written_only_for_home prog sched s t u c :
  run (step prog) (init prog) sched = Some s ->
  nth_error prog t = Some (SetStatus u c) -> nth_error (pcs s) t = Some SGot ->
  chosen s = Some u /\
  exists s', step prog s t = Some s' /\ watch s' = Some (u, c) /\ chosen s' = Some u.
Proof.
  intros Hr Hop Hp. pose proof (reachable_inv prog sched s Hr) as HI.
  pose proof (I_guard _ _ HI t u c Hop Hp) as Hg. rewrite (I_url _ _ HI) in Hg.
  split; [assumption|].
  unfold step, step_gen. rewrite Hop, Hp. eexists. split; [reflexivity|]. cbn. auto.
Qed.

Theorem no_deadlock prog sched s :
  run (step prog) (init prog) sched = Some s -> quiescent s = false ->
  exists t s', step prog s t = Some s'.
Proof. intros Hr. apply progress, (I_typed prog), (reachable_inv prog sched), Hr. Qed.

(* Old.step (get-then-set without a lock): relay 1 is home; its actor passes the URL check;
   home moves to relay 2; the actor of relay 1 writes (1, Connected) *)
Theorem old_toctou :
  exists prog sched s, run (Old.step prog) (init prog) sched = Some s /\
    url_of (watch s) <> chosen s.
Proof.
  exists [Choose (Some 1); SetStatus 1 1; Choose (Some 2)], [0; 0; 1; 2; 2; 1]%nat.
  eexists. split; [vm_compute; reflexivity|]. cbn. discriminate.
Qed.

(* ... and relay 2's own status report is then dropped by the URL check *)
Theorem old_toctou_sticks :
  exists prog sched s, run (Old.step prog) (init prog) sched = Some s /\ quiescent s = true /\
    watch s = Some (1, 1) /\ chosen s = Some 2.
Proof.
  exists [Choose (Some 1); SetStatus 1 1; Choose (Some 2); SetStatus 2 1], [0; 0; 1; 2; 2; 1; 3]%nat.
  eexists. split; [vm_compute; reflexivity|]. repeat split.
Qed.

(* under step the racing schedule is disabled: the relay actor's set waits for the writer mutex *)
Example new_toctou_blocked :
  run (step [Choose (Some 1); SetStatus 1 1; Choose (Some 2)])
      (init [Choose (Some 1); SetStatus 1 1; Choose (Some 2)]) [0; 0; 1; 2; 2]%nat = None.
Proof. vm_compute. reflexivity. Qed.

(* non-vacuity: a quiescent reachable state in which a status write went through *)
Example reachable_nontrivial :
  exists s, run (step [Choose (Some 1); SetStatus 1 1; Choose (Some 2); SetStatus 2 1])
                (init [Choose (Some 1); SetStatus 1 1; Choose (Some 2); SetStatus 2 1])
                [0; 0; 1; 2; 1; 2; 3; 3]%nat = Some s /\
            quiescent s = true /\ watch s = Some (2, 1) /\ chosen s = Some 2.
Proof. eexists. split; [vm_compute; reflexivity|]. repeat split. Qed.

Definition AInv (s : ast) : Prop := url_of (awatch s) = achosen s.

Lemma set_status_home u c w : url_of w = Some u -> w_set_status u c w = Some (u, c).
Proof. intros H. unfold w_set_status. now rewrite (proj2 (opt_N_eqb_iff _ _) H). Qed.

Lemma set_status_other u c w : url_of w <> Some u -> w_set_status u c w = w.
Proof.
  intros H. unfold w_set_status. destruct (opt_eqb N.eqb (url_of w) (Some u)) eqn:E; [|reflexivity].
  now apply opt_N_eqb_iff in E.
Qed.

Lemma url_of_set_status u c w : url_of (w_set_status u c w) = url_of w.
Proof.
  unfold w_set_status. destruct (opt_eqb N.eqb (url_of w) (Some u)) eqn:E; [|reflexivity].
  now apply opt_N_eqb_iff in E.
Qed.

Lemma astep_report s u c s' : astep s (AReport u c) = Some s' ->
  awatch s' = w_set_status u c (awatch s) /\ achosen s' = achosen s.
Proof.
  unfold astep, astep_gen. destruct (find_actor u (actors s)) as [a|]; [|discriminate].
  destruct (report_next (a_phase a) c); [|discriminate]. now intros [= <-].
Qed.

Lemma astep_actor s u e s' :
  (exists conn b, e = AHandle u conn b) \/ (exists c, e = AReport u c) -> astep s e = Some s' ->
  achosen s' = achosen s /\
  (awatch s' = awatch s \/ exists c, awatch s' = w_set_status u c (awatch s)).
Proof.
  intros [(conn & b & ->)|(c & ->)] H.
  - unfold astep, astep_gen in H. destruct (find_actor u (actors s)) as [a|]; [|discriminate].
    destruct (a_inbox a) as [|b' rest]; [discriminate|].
    destruct (Bool.eqb b b' && phase_eqb _ _); [|discriminate]. injection H as <-.
    split; [reflexivity|]. unfold handler_writer. destruct (conn && b); [right; now exists 1|now left].
  - apply astep_report in H as [-> ->]. eauto.
Qed.

Lemma astep_inv s e s' : AInv s -> astep s e = Some s' -> AInv s'.
Proof.
  unfold AInv. intros I H. destruct e as [pref|u|u conn b|u c].
  (* the two actor events leave [achosen] alone and change the watch at most by
     [w_set_status], which keeps its url *)
  3,4: apply astep_actor with (u := u) in H as [-> [->|[c' ->]]];
    [exact I|now rewrite url_of_set_status|eauto].
  - unfold astep, astep_gen in H. destruct (opt_eqb N.eqb pref (url_of (awatch s))) eqn:E.
    + injection H as <-. cbn. apply opt_N_eqb_iff in E. now symmetry.
    + destruct pref as [n|]; injection H as <-; reflexivity.
  - injection H as <-. exact I.
Qed.

Theorem actor_demoted_never_published evs s :
  arun astep ainit evs = Some s -> url_of (awatch s) = achosen s.
Proof. exact (orun_inv astep AInv astep_inv evs ainit s eq_refl). Qed.

Theorem demoted_actor_publishes_nothing evs s u e s' :
  arun astep ainit evs = Some s -> achosen s <> Some u ->
  (exists conn b, e = AHandle u conn b) \/ (exists c, e = AReport u c) ->
  astep s e = Some s' -> awatch s' = awatch s /\ achosen s' = achosen s.
Proof.
  intros Hr Hc He H. pose proof (actor_demoted_never_published _ _ Hr) as I.
  destruct (astep_actor s u e s' He H) as [-> [->|[c ->]]]; (split; [|reflexivity]); [reflexivity|].
  apply set_status_other. congruence.
Qed.

Theorem home_actor_report_published evs s u c s' :
  arun astep ainit evs = Some s -> achosen s = Some u ->
  astep s (AReport u c) = Some s' -> awatch s' = Some (u, c) /\ achosen s' = Some u.
Proof.
  intros Hr Hc H. pose proof (actor_demoted_never_published _ _ Hr) as I.
  apply astep_report in H as [-> ->]. split; [|exact Hc].
  apply set_status_home. congruence.
Qed.

Lemma arun_snaps_ok evs : forall s l, AInv s -> arun_snaps astep s evs = Some l -> forallb snap_ok l = true.
Proof.
  induction evs as [|e r IH]; intros s l I H; cbn [arun_snaps] in H.
  - now injection H as <-.
  - destruct (astep s e) as [s1|] eqn:E; [|discriminate].
    destruct (arun_snaps astep s1 r) as [l1|] eqn:R; [|discriminate]. injection H as <-.
    pose proof (astep_inv _ _ _ I E) as I1. cbn [forallb]. rewrite (IH _ _ I1 R), Bool.andb_true_r.
    apply snap_ok_iff. exact I1.
Qed.

(* Unguarded: the run_connected handler publishes with `set`.  Relay 1 is connected and home,
   then demoted for relay 2 before it handles its SetHomeRelay(true); handling it advertises
   relay 1 again *)
Theorem unguarded_handler_refuted :
  exists evs s, arun Unguarded.astep ainit evs = Some s /\ url_of (awatch s) <> achosen s.
Proof.
  exists [AStart 1; AReport 1 0; AReport 1 1; AHome (Some 1); AHome (Some 2); AHandle 1 true true].
  eexists. split; [vm_compute; reflexivity|]. cbn. discriminate.
Qed.

(* ... and the SetHomeRelay(false) that follows does not repair it *)
Theorem unguarded_handler_refuted_sticks :
  exists evs s, arun Unguarded.astep ainit evs = Some s /\
    awatch s = Some (1, 1) /\ achosen s = Some 2 /\
    forallb (fun a => match a_inbox a with [] => true | _ => false end) (actors s) = true.
Proof.
  exists [AStart 1; AReport 1 0; AReport 1 1; AHome (Some 1); AHome (Some 2); AHandle 1 true true;
          AHandle 1 true false; AReport 2 0; AHandle 2 false true; AReport 2 1].
  eexists. split; [vm_compute; reflexivity|]. repeat split.
Qed.

(* the same history on the code as it is: the late message publishes nothing, relay 2's own
   reports are published *)
Example actor_late_message :
  amodel [AStart 1; AReport 1 0; AReport 1 1; AHome (Some 1); AHome (Some 2); AHandle 1 true true;
          AHandle 1 true false; AReport 2 0; AHandle 2 false true; AReport 2 1] =
  Some (map Some [(None, None); (None, None); (None, None); (Some (1, 0), Some 1); (Some (2, 0), Some 2);
                  (Some (2, 0), Some 2); (Some (2, 0), Some 2); (Some (2, 0), Some 2); (Some (2, 0), Some 2);
                  (Some (2, 1), Some 2)]).
Proof. vm_compute. reflexivity. Qed.

(* a SetHomeRelay(true) handled in time republishes the actor's real state *)
Example actor_timely_message :
  amodel [AStart 1; AReport 1 0; AReport 1 1; AHome (Some 1); AHandle 1 true true] =
  Some (map Some [(None, None); (None, None); (None, None); (Some (1, 0), Some 1); (Some (1, 1), Some 1)]).
Proof. vm_compute. reflexivity. Qed.

(* disabled, as the code cannot produce them: a message handled while backing off, a message
   never sent, Connected reported by an actor not dialing, an actor that does not exist *)
Example actor_disabled :
  amodel [AHome (Some 1); AHandle 1 false true] = None /\
  amodel [AStart 1; AReport 1 0; AHandle 1 false true] = None /\
  amodel [AStart 1; AReport 1 1] = None /\
  amodel [AReport 1 0] = None /\
  amodel [AHome (Some 1); AReport 1 0; AHandle 1 false false] = None.
Proof. vm_compute. auto. Qed.

Lemma set_status_alone u c w ch s :
  run (step [SetStatus u c]) (mkSt w ch [Idle]) [0; 0]%nat = Some s \/
  run (step [SetStatus u c]) (mkSt w ch [Idle]) [0]%nat = Some s ->
  quiescent s = true -> s = mkSt (w_set_status u c w) ch [Done].
Proof.
  unfold w_set_status. cbn.
  destruct (opt_eqb N.eqb (url_of w) (Some u)); cbn; intros [[= <-]|[= <-]]; easy.
Qed.

(* the guarded atomic writer is what a set_status call does at the lock level when nothing
   interleaves *)
Example writers_match_lock_level u c w :
  let prog := [SetStatus u c] in
  forall s, run (step prog) (mkSt w None [Idle]) [0; 0]%nat = Some s \/
            run (step prog) (mkSt w None [Idle]) [0]%nat = Some s ->
            quiescent s = true -> watch s = w_set_status u c w.
Proof. intros prog s H Q. now apply set_status_alone in H as ->. Qed.

Theorem monitor_spec i l :
  monitor i (Some l) = true <-> forall w c, In (Some (w, c)) l -> url_of w = c.
Proof.
  unfold monitor. rewrite forallb_forall. split.
  - intros H w c Hin. exact (proj1 (snap_ok_iff w c) (H _ Hin)).
  - intros H [[w c]|] Hin; [|reflexivity]. apply snap_ok_iff. auto.
Qed.

Lemma forallb_osnap l : forallb osnap_ok (map Some l) = forallb snap_ok l.
Proof. induction l as [|a l IH]; cbn; [reflexivity|]. now rewrite IH. Qed.

Theorem model_monitor : forall i, monitor i (model i) = true.
Proof.
  intros [[prog evs]|evs]; unfold monitor, model.
  - unfold model_with.
    destruct (run_ev (step prog) (init prog) evs) as [[l s]|] eqn:Hr; [|reflexivity].
    destruct (quiescent s); [|reflexivity].
    rewrite forallb_osnap. eapply run_ev_snaps; [apply init_inv|eassumption].
  - unfold amodel. destruct (arun_snaps astep ainit evs) as [l|] eqn:Hr; [|reflexivity].
    rewrite forallb_osnap. now apply (arun_snaps_ok evs ainit).
Qed.
