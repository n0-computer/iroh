(* C33 — invariants of the CAS loop over arbitrary traces. *)
From V Require Import Lib.Base Lib.MachineInt Lib.Trace Model.C33.
From Coq Require Import Sorted.
Import C33.
Open Scope N_scope.

Definition desc (l : list N) : Prop := StronglySorted (fun a b => b < a) l.
Definition rvals (s : st) : list N := map snd (rets s).

(* [i_desc], [i_hd], [i_le], [i_c0]: the wins are the values the cell has had, newest first, all above
   the start; [i_last], [i_won]: what a thread holds comes from the cell; [i_ret], [i_nodup]: the
   returns; [i_fresh], [i_uniq] are there only to carry [i_nodup] through a [Ret] (a value held is
   not yet returned, and is held by one thread); [i_dead]: a panic needs the cell at u64::MAX. *)
Record inv (c0 : N) (s : st) : Prop := {
  i_last  : forall t m l, loc s t = Loaded m l -> l <= cell s;
  i_won   : forall t v, loc s t = Won v -> In v (wins s);
  i_le    : forall v, In v (wins s) -> c0 < v /\ v <= cell s;
  i_c0    : c0 <= cell s;
  i_desc  : desc (wins s);
  i_hd    : cell s = hd c0 (wins s);
  i_ret   : forall v, In v (rvals s) -> In v (wins s);
  i_nodup : NoDup (rvals s);
  i_fresh : forall t v, loc s t = Won v -> ~ In v (rvals s);
  i_uniq  : forall t t' v, loc s t = Won v -> loc s t' = Won v -> t = t';
  i_dead  : 0 < panics s -> U64_MAX <= cell s
}.

Lemma inv_init c0 : inv c0 (init c0).
Proof.
  constructor; cbn; try discriminate; try tauto; try lia.
  - constructor.
  - constructor.
Qed.

Lemma upd_same f t x : upd f t x t = x.
Proof. unfold upd. now rewrite Nat.eqb_refl. Qed.
Lemma upd_other f t x t' : t' <> t -> upd f t x t' = f t'.
Proof. intros H%Nat.eqb_neq. unfold upd. now rewrite H. Qed.

(* [u] is the thread updated, [q] the one asked about *)
Ltac upd_cases u q :=
  destruct (Nat.eq_dec q u) as [->|?]; [rewrite upd_same|rewrite upd_other by assumption].

(* the panic count is left free, so that the lemma serves [set_loc] (by conversion, with [panics s])
   and the step into [Dead], which counts one more *)
Lemma inv_set_loc c0 s t x p :
  inv c0 s ->
  (forall m l, x = Loaded m l -> l <= cell s) ->
  (forall v, x <> Won v) ->
  (0 < p -> U64_MAX <= cell s) ->
  inv c0 (mk (cell s) (upd (loc s) t x) (wins s) (rets s) p).
Proof.
  intros I Hl Hw Hp. destruct I. constructor; cbn; auto.
  - intros t' m l. upd_cases t t'; eauto.
  - intros t' v. upd_cases t t'; [intros E; now apply Hw in E|eauto].
  - intros t' v. upd_cases t t'; [intros E; now apply Hw in E|eauto].
  - intros t1 t2 v. upd_cases t t1; [intros E; now apply Hw in E|].
    upd_cases t t2; [intros _ E; now apply Hw in E|eauto].
Qed.

Inductive step_case (s : st) (t : nat) : st -> Prop :=
| SNone : step_case s t s
| SLoc x : (forall v, x <> Won v) -> (forall m l, x = Loaded m l -> l = cell s) ->
    step_case s t (set_loc s t x)
| SDead m : loc s t = Loaded m U64_MAX ->
    step_case s t (mk (cell s) (upd (loc s) t Dead) (wins s) (rets s) (panics s + 1))
| SWin next : cell s < next ->
    step_case s t (mk next (upd (loc s) t (Won next)) (next :: wins s) (rets s) (panics s))
| SRet v : loc s t = Won v ->
    step_case s t (mk (cell s) (upd (loc s) t Idle) (wins s) ((t, v) :: rets s) (panics s)).

Lemma step_cases s t a : step_case s t (step s (t, a)).
Proof.
  unfold step. destruct a as [mc| | | |]; destruct (loc s t) as [|m|m last|v|] eqn:E;
    try apply SNone; try (apply SLoc; congruence).
  - destruct (N.eqb_spec last U64_MAX) as [->|Hmax]; [now apply (SDead s t m)|].
    destruct (N.eqb_spec (cell s) last) as [<-|Hc]; [apply SWin; lia|apply SLoc; congruence].
  - destruct (N.eqb_spec last U64_MAX) as [->|Hmax]; [now apply (SDead s t m)|apply SLoc; congruence].
  - now apply SRet.
Qed.

Lemma step_inv c0 s e : inv c0 s -> inv c0 (step s e).
Proof.
  intros I. destruct e as [t a].
  destruct (step_cases s t a) as [|x Hw Hl|m Hl|next Hlt|v Hl].
  - exact I.
  - apply inv_set_loc; [exact I| |exact Hw|apply I]. intros m l E. apply Hl in E. lia.
  - apply inv_set_loc; [exact I|discriminate..|]. intros _. exact (i_last _ _ I _ _ _ Hl).
  - (* the new value is above the cell, hence above every value won or returned so far *)
    destruct I.
    assert (Hold : forall v, In v (wins s) -> v < next) by (intros v Hv; apply i_le0 in Hv; lia).
    assert (Hnew : ~ In next (wins s)) by (intros Hv; apply Hold in Hv; lia).
    constructor; cbn.
    + intros t' m' l. upd_cases t t'; [discriminate|]. intros E. apply i_last0 in E. lia.
    + intros t' v. upd_cases t t'; [intros [= <-]; now left|]. intros E. right. eauto.
    + intros v [<-|Hv]; [|apply i_le0 in Hv]; lia.
    + lia.
    + constructor; [exact i_desc0|]. now apply Forall_forall.
    + reflexivity.
    + intros v Hv. right. auto.
    + exact i_nodup0.
    + intros t' v. upd_cases t t'; [|eauto]. intros [= <-] Hin. exact (Hnew (i_ret0 _ Hin)).
    + intros t1 t2 v. upd_cases t t1; upd_cases t t2; [reflexivity| | |apply i_uniq0].
      * intros [= <-] E. destruct (Hnew (i_won0 _ _ E)).
      * intros E [= <-]. destruct (Hnew (i_won0 _ _ E)).
    + intros Hp. apply i_dead0 in Hp. lia.
  - (* the value returned was won by this thread alone and has not been returned before *)
    destruct I. constructor; cbn; unfold rvals in *; cbn; auto.
    + intros t' m l. upd_cases t t'; [discriminate|eauto].
    + intros t' w. upd_cases t t'; [discriminate|eauto].
    + intros w [<-|Hw]; eauto.
    + constructor; [eapply i_fresh0; eauto|exact i_nodup0].
    + intros t' w. upd_cases t t'; [discriminate|]. intros E [<-|Hin]; [|eapply i_fresh0; eauto].
      assert (t' = t) by (eapply i_uniq0; eauto). contradiction.
    + intros t1 t2 w. upd_cases t t1; [discriminate|]. upd_cases t t2; [discriminate|eauto].
Qed.

Lemma run_inv c0 tr s : inv c0 s -> inv c0 (run s tr).
Proof. apply fold_left_inv, step_inv. Qed.

Lemma reach_inv c0 tr : inv c0 (run (init c0) tr).
Proof. apply run_inv, inv_init. Qed.

Lemma step_cell s e : cell s <= cell (step s e).
Proof. destruct e as [t a]. destruct (step_cases s t a); cbn; lia. Qed.

Lemma run_cell_mono tr s : cell s <= cell (run s tr).
Proof.
  apply (fold_left_inv step (fun s' => cell s <= cell s')); [|lia].
  intros s' e H. pose proof (step_cell s' e). lia.
Qed.

Lemma cell_strictly_increasing c0 tr :
  let s := run (init c0) tr in
  desc (wins s) /\ cell s = hd c0 (wins s) /\ (forall v, In v (wins s) -> c0 < v <= cell s).
Proof.
  cbn. pose proof (reach_inv c0 tr) as I. destruct I. repeat split; auto; apply i_le0; auto.
Qed.

Lemma returns_are_cell_values c0 tr v :
  In v (rvals (run (init c0) tr)) -> In v (wins (run (init c0) tr)).
Proof. apply (i_ret _ _ (reach_inv c0 tr)). Qed.

Lemma returns_distinct c0 tr : NoDup (rvals (run (init c0) tr)).
Proof. apply (i_nodup _ _ (reach_inv c0 tr)). Qed.

Lemma returns_above_start c0 tr v : In v (rvals (run (init c0) tr)) -> c0 < v.
Proof.
  intros H. apply (i_le _ _ (reach_inv c0 tr)), returns_are_cell_values, H.
Qed.

Lemma desc_app a b : desc (a ++ b) -> forall x y, In x a -> In y b -> y < x.
Proof.
  induction a as [|z a IH]; intros D x y Hx Hy; [destruct Hx|].
  apply StronglySorted_inv in D as [D F]. destruct Hx as [->|Hx]; [|exact (IH D x y Hx Hy)].
  rewrite Forall_forall in F. apply F, in_or_app. now right.
Qed.

(* since a point P at which thread t was outside a call, the wins were W and the returns old:
   what t holds or has returned was won since *)
Definition since (W : list N) (t : nat) (old : list (nat * N)) (s : st) : Prop :=
  exists nw new, wins s = nw ++ W /\ rets s = new ++ old /\
    (forall v, loc s t = Won v -> In v nw) /\ (forall v, In (t, v) new -> In v nw).

Lemma since_step W t old s e : since W t old s -> since W t old (step s e).
Proof.
  intros (nw & new & Hw & Hr & Hh & Hn). destruct e as [t' a].
  destruct (step_cases s t' a) as [|x Xw _|m _|next _|v Hv]; unfold since;
    cbn [wins rets loc set_loc].
  - exists nw, new. auto.
  - exists nw, new. repeat split; auto. intros v. upd_cases t' t; [intros E; now apply Xw in E|auto].
  - exists nw, new. repeat split; auto. intros v. upd_cases t' t; [discriminate|auto].
  - exists (next :: nw), new. rewrite Hw. repeat split; auto.
    + intros v. upd_cases t' t; [intros [= <-]; now left|right; auto].
    + intros v Hin. right; auto.
  - exists nw, ((t', v) :: new). rewrite Hr. repeat split; auto.
    + intros w. upd_cases t' t; [discriminate|auto].
    + intros w [[= -> ->]|Hin]; auto.
Qed.

(* real-time order: a call that begins after a point P returns more
   than everything returned before P; the wins are in order, what was returned before P was won
   before P, what the call returns is won after *)
Lemma realtime_order c0 tr1 tr2 t :
  let s1 := run (init c0) tr1 in
  let s2 := run s1 tr2 in
  (loc s1 t = Idle \/ loc s1 t = Dead) ->
  exists new, rets s2 = new ++ rets s1 /\
    forall w, In (t, w) new -> forall v, In v (rvals s1) -> v < w.
Proof.
  cbn. intros Hidle. set (s1 := run (init c0) tr1) in *.
  assert (A : since (wins s1) t (rets s1) s1).
  { exists [], []. repeat split; [|intros v []].
    intros v E. destruct Hidle as [H|H]; rewrite H in E; discriminate. }
  apply (fold_left_inv step _ (since_step _ _ _) tr2) in A. destruct A as (nw & new & Hw & Hr & _ & Hn).
  exists new. split; [exact Hr|]. intros w Hw' v Hv.
  pose proof (i_desc _ _ (run_inv c0 tr2 s1 (reach_inv c0 tr1))) as D. unfold run in D. rewrite Hw in D.
  apply (desc_app _ _ D); [exact (Hn w Hw')|]. exact (i_ret _ _ (reach_inv c0 tr1) v Hv).
Qed.

Lemma no_panic_below_max c0 tr :
  cell (run (init c0) tr) < U64_MAX -> panics (run (init c0) tr) = 0.
Proof. intros H. pose proof (i_dead _ _ (reach_inv c0 tr)) as D. lia. Qed.

(* values stay u64 when the clock readings are *)
Definition clocks_u64 (tr : list (nat * action)) : Prop :=
  forall t m, In (t, ReadClock m) tr -> m <= U64_MAX.

Definition vals (l : list (res N)) : list N :=
  flat_map (fun r => match r with Ok v => [v] | _ => [] end) l.

(* the [Sched] branch of [monitor], from any value of the cell: [monitor (Sched c0 ops) (OSched l)]
   is [mon_from c0 l] by conversion, which is how [model_monitor] uses [exec_monitor] *)
Definition mon_from (p : N) (l : list (res N)) : bool :=
  strictly_inc (Some p) (vals l) &&
  (forallb (fun r => negb (is_panic r)) l || (U64_MAX <=? p) ||
   existsb (fun r => match r with Ok v => U64_MAX <=? v | _ => false end) l).

Lemma mon_from_ok p v rest :
  p < v -> mon_from v rest = true -> mon_from p (Ok v :: rest) = true.
Proof.
  unfold mon_from. intros Hlt H. apply andb_prop in H as [H1 H2]. apply N.ltb_lt in Hlt.
  cbn [vals flat_map app strictly_inc forallb existsb is_panic negb].
  change (flat_map _ rest) with (vals rest). rewrite H1, Hlt. cbn [andb].
  apply orb_prop in H2 as [H2|H2]; [apply orb_prop in H2 as [H2|H2]|];
    rewrite H2; cbn [orb]; rewrite ?orb_true_r; reflexivity.
Qed.

Lemma mon_from_panic p rest :
  U64_MAX <= p -> mon_from p rest = true -> mon_from p (Panic :: rest) = true.
Proof.
  unfold mon_from. intros Hp H. apply andb_prop in H as [H1 H2]. apply N.leb_le in Hp.
  cbn [vals flat_map app]. change (flat_map _ rest) with (vals rest).
  rewrite H1, Hp, orb_true_r. reflexivity.
Qed.

(* [step_case] says what a step does to the state and forgets which value is written; [exec] runs
   particular steps and needs them as equations *)
Lemma run2 s a b : run s [a; b] = step (step s a) b.
Proof. reflexivity. Qed.

Lemma step_rc s t m : busy (loc s t) = false -> step s (t, ReadClock m) = set_loc s t (Clock m).
Proof. unfold step. destruct (loc s t); try discriminate; reflexivity. Qed.

Lemma step_ld s t m : loc s t = Clock m -> step s (t, Load) = set_loc s t (Loaded m (cell s)).
Proof. unfold step. intros ->. reflexivity. Qed.

Lemma step_cas s t m last : loc s t = Loaded m last ->
  step s (t, Cas) =
  if last =? U64_MAX then mk (cell s) (upd (loc s) t Dead) (wins s) (rets s) (panics s + 1)
  else if cell s =? last
       then mk (N.max m (last + 1)) (upd (loc s) t (Won (N.max m (last + 1))))
               (N.max m (last + 1) :: wins s) (rets s) (panics s)
       else set_loc s t (Loaded m (cell s)).
Proof. unfold step. intros ->. reflexivity. Qed.

Lemma step_cas_skip s t : (forall m l, loc s t <> Loaded m l) -> step s (t, Cas) = s.
Proof.
  unfold step. intros H. destruct (loc s t) as [|m|m l|v|]; try reflexivity. now specialize (H m l).
Qed.

Lemma ret_cell s t : cell (step s (t, Ret)) = cell s.
Proof. unfold step. now destruct (loc s t). Qed.

(* a call that has loaded a value not above the cell ends within two CASes, the second with the
   value of the cell (nobody else moves): it panics (the cell is at u64::MAX) or wins, so [exec]
   never takes its branch [Err 1] *)
Lemma cas_twice s t m last : loc s t = Loaded m last -> last <= cell s ->
  let s' := step (step s (t, Cas)) (t, Cas) in
  (loc s' t = Dead /\ cell s' = cell s /\ U64_MAX <= cell s) \/
  (loc s' t = Won (cell s') /\ cell s < cell s').
Proof.
  intros Hl Hle. cbv zeta. rewrite (step_cas s t m last Hl).
  destruct (N.eqb_spec last U64_MAX) as [->|Hmax].
  - (* panics at once *)
    rewrite step_cas_skip by (cbn; rewrite upd_same; discriminate).
    left. cbn. rewrite upd_same. auto.
  - destruct (N.eqb_spec (cell s) last) as [E|Hc].
    + (* wins at once *)
      rewrite step_cas_skip by (cbn; rewrite upd_same; discriminate).
      right. cbn. rewrite upd_same. split; [reflexivity|lia].
    + (* reloads, and the second CAS finds the cell as loaded *)
      rewrite (step_cas _ t m (cell s)) by apply upd_same. cbn [cell set_loc]. rewrite N.eqb_refl.
      destruct (N.eqb_spec (cell s) U64_MAX); [left|right]; cbn; rewrite upd_same; repeat split; lia.
Qed.

Lemma exec_monitor c0 ops : forall s, inv c0 s -> mon_from (cell s) (exec s ops) = true.
Proof.
  induction ops as [|o ops IH]; intros s I; [reflexivity|].
  destruct o as [t m|t]; cbn [exec].
  - destruct (busy (loc s t)) eqn:Hb; [auto|].
    apply (run_inv c0 [(t, ReadClock m); (t, Load)]), IH in I.
    rewrite run2, (step_rc s t m Hb), (step_ld _ t m) in I |- * by apply upd_same. exact I.
  - destruct (loc s t) as [|m|m last|v|] eqn:Hl; auto. rewrite run2.
    pose proof (cas_twice s t m last Hl (i_last _ _ I _ _ _ Hl)) as Fin.
    pose proof (step_inv c0 _ (t, Cas) (step_inv c0 s (t, Cas) I)) as I'.
    set (s' := step (step s (t, Cas)) (t, Cas)) in *.
    destruct Fin as [(-> & C & Mx)|(-> & Lt)].
    + apply mon_from_panic; [exact Mx|]. rewrite <- C. now apply IH.
    + apply mon_from_ok; [exact Lt|]. rewrite <- (ret_cell s' t). now apply IH, step_inv.
Qed.

Lemma model_monitor c0 ops : monitor (Sched c0 ops) (OSched (model (Sched c0 ops))) = true.
Proof. apply (exec_monitor c0 ops (init c0)), inv_init. Qed.

(* two threads load the same value; the loser of the CAS retries and gets last + 1 *)
Example race_example :
  model (Sched 5 [B 0 3; B 1 9; F 1; F 0]) = [Ok 9; Ok 10].
Proof. vm_compute. reflexivity. Qed.
(* clock going backwards *)
Example backwards_example :
  model (Sched 100 [B 0 200; F 0; B 0 150; F 0; B 0 150; F 0]) = [Ok 200; Ok 201; Ok 202].
Proof. vm_compute. reflexivity. Qed.
(* at u64::MAX the next call panics (debug build) *)
Example overflow_example :
  model (Sched (U64_MAX - 1) [B 0 1; F 0; B 0 1; F 0]) = [Ok U64_MAX; Panic].
Proof. vm_compute. reflexivity. Qed.
Example spurious_example :
  rets (run (init 7) [(0%nat, ReadClock 3); (0%nat, Load); (0%nat, CasSpur); (0%nat, Cas); (0%nat, Ret)]) = [(0%nat, 8)].
Proof. vm_compute. reflexivity. Qed.
