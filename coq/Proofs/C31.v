(* C31 — an endpoint info published as TXT strings resolves to the same id, address set and
   user data. *)
From V Require Import Lib.Base Lib.Lists Lib.Dec Gen.Consts Model.C31.
Import C31.
Open Scope N_scope.

Lemma split_once_app c k v :
  ~ In c k -> split_once c (k ++ c :: v) = (k, Some v).
Proof.
  induction k as [|x k IH]; intros H; cbn [app split_once].
  - now rewrite N.eqb_refl.
  - destruct (N.eqb_spec x c) as [->|_]; [elim H; now left|].
    rewrite IH; [reflexivity|]. intros Hin. apply H. now right.
Qed.

Lemma attr_name_no_eq a : ~ In EQ (attr_name a).
Proof. apply existsb_eqb_notin. now destruct a. Qed.

Lemma attr_of_name_name a : attr_of_name (attr_name a) = Some a.
Proof. destruct a; vm_compute; reflexivity. Qed.

Lemma key_value_kv a v : key_value (kv_string a v) = Some (attr_name a, v).
Proof.
  unfold key_value, kv_string. rewrite split_once_app; [reflexivity | apply attr_name_no_eq].
Qed.

Lemma key_value_old_kv a v :
  key_value_old (kv_string a v) = Some (attr_name a, fst (split_once EQ v)).
Proof.
  unfold key_value_old, kv_string. rewrite split_once_app; [reflexivity | apply attr_name_no_eq].
Qed.

Lemma from_strings_go_map k vs : forall acc rest,
  from_strings_go key_value acc (map (kv_string k) vs ++ rest) =
  from_strings_go key_value
    match k with
    | ARelay => mkAttrs (t_id acc) (t_relay acc ++ vs) (t_addr acc) (t_ud acc)
    | AAddr => mkAttrs (t_id acc) (t_relay acc) (t_addr acc ++ vs) (t_ud acc)
    | AUserData => mkAttrs (t_id acc) (t_relay acc) (t_addr acc) (t_ud acc ++ vs)
    end rest.
Proof.
  induction vs as [|v vs IH]; intros acc rest; cbn [map app from_strings_go].
  - rewrite !app_nil_r. now destruct k, acc.
  - rewrite key_value_kv, attr_of_name_name, IH.
    destruct k; cbn [push t_id t_relay t_addr t_ud]; now rewrite <- app_assoc.
Qed.

Lemma from_strings_to_txt_strings id a :
  from_strings id (to_txt_strings a) = Ok (mkAttrs id (t_relay a) (t_addr a) (t_ud a)).
Proof.
  unfold from_strings, from_strings_with, to_txt_strings.
  rewrite <- (app_nil_r (map (kv_string AUserData) (t_ud a))).
  now rewrite !from_strings_go_map.
Qed.

(* the values from_parts files under key [k] *)
Fixpoint sel (k : attr) (pairs : list (attr * bytes)) : list bytes :=
  match pairs with
  | [] => []
  | (k', v) :: r =>
      match k, k' with
      | ARelay, ARelay | AAddr, AAddr | AUserData, AUserData => v :: sel k r
      | _, _ => sel k r
      end
  end.

Lemma from_parts_go pairs : forall id r a u,
  fold_left (fun acc kv => push acc (fst kv) (snd kv)) pairs (mkAttrs id r a u) =
  mkAttrs id (r ++ sel ARelay pairs) (a ++ sel AAddr pairs) (u ++ sel AUserData pairs).
Proof.
  induction pairs as [|[k v] pairs IH]; intros; cbn [fold_left sel].
  - now rewrite !app_nil_r.
  - destruct k; cbn [fst snd push t_id t_relay t_addr t_ud]; rewrite IH, <- ?app_assoc; reflexivity.
Qed.

Lemma from_parts_sel id pairs :
  from_parts id pairs = mkAttrs id (sel ARelay pairs) (sel AAddr pairs) (sel AUserData pairs).
Proof. unfold from_parts. now rewrite from_parts_go. Qed.

(* custom addresses: "{id:x}_{hex}" has no '_' before the separator and no ':' at all *)
Lemma not_hex_notin x l : is_hex_low x = false -> Forall (fun c => is_hex_low c = true) l -> ~ In x l.
Proof. intros Hx F H. rewrite Forall_forall in F. apply F in H. congruence. Qed.

Lemma parse_custom_print i d :
  i <= 18446744073709551615 -> Forall (fun b => b < 256) d ->
  parse_custom (print_custom i d) = Some (i, d).
Proof.
  intros Hi Hd. unfold parse_custom, print_custom.
  rewrite split_once_app by (apply not_hex_notin; [reflexivity | apply hexnum_is_hex]).
  rewrite parse_hex_u64_hexnum by exact Hi. now rewrite unhexlow_hexlow.
Qed.

Lemma print_custom_no_colon i d : Forall (fun b => b < 256) d -> ~ In COLON (print_custom i d).
Proof.
  intros Hd H. unfold print_custom in H. apply in_app_or in H as [H | [H | H]].
  - exact (not_hex_notin COLON _ eq_refl (hexnum_is_hex i) H).
  - discriminate.
  - exact (not_hex_notin COLON _ eq_refl (hexlow_is_hex d Hd) H).
Qed.

Section Proofs.
  Variables Url Sock : Type.
  Variable url_eqb : Url -> Url -> bool.
  Variable sock_eqb : Sock -> Sock -> bool.
  Variable print_url : Url -> bytes.
  Variable parse_url : bytes -> option Url.
  Variable print_sock : Sock -> bytes.
  Variable parse_sock : bytes -> option Sock.
  Hypothesis url_eqb_spec : forall u v, url_eqb u v = true <-> u = v.
  Hypothesis sock_eqb_spec : forall a b, sock_eqb a b = true <-> a = b.

  Notation addr := (addr Url Sock).
  Notation info := (info Url Sock).
  Notation addr_eqb := (addr_eqb Url Sock url_eqb sock_eqb).
  Notation print_addr := (print_addr Url Sock print_url print_sock).
  Notation to_attrs := (to_attrs Url Sock print_url print_sock).
  Notation parse_addr_value := (parse_addr_value Url Sock parse_sock).
  Notation parse_relay_value := (parse_relay_value Url Sock parse_url).
  Notation add_addrs := (add_addrs Url Sock url_eqb sock_eqb).
  Notation resolve_txt := (resolve_txt Url Sock url_eqb sock_eqb print_url parse_url print_sock parse_sock).
  Notation resolve_pkt := (resolve_pkt Url Sock url_eqb sock_eqb print_url parse_url print_sock parse_sock).
  Notation same_info := (same_info Url Sock url_eqb sock_eqb).
  Notation subset := (subset Url Sock url_eqb sock_eqb).
  Notation addr_okb := (addr_okb Url Sock url_eqb sock_eqb print_url parse_url print_sock parse_sock).

  Lemma addr_eqb_spec x y : addr_eqb x y = true <-> x = y.
  Proof.
    destruct x as [u|a|i d], y as [v|b|j e]; cbn [C31.addr_eqb]; try (split; discriminate).
    - rewrite url_eqb_spec. split; congruence.
    - rewrite sock_eqb_spec. split; congruence.
    - rewrite andb_true_iff, N.eqb_eq, bytes_eqb_iff. split; [intros []; congruence | now intros [=]].
  Qed.

  (* what the theorem needs of the printers and parsers, per published address *)
  Definition addr_ok (a : addr) : Prop :=
    match a with
    | Relay u => parse_url (print_url u) = Some u
    | Ip s => parse_sock (print_sock s) = Some s
    | Custom i d => i <= 18446744073709551615 /\ Forall (fun b => b < 256) d /\
                    parse_sock (print_custom i d) = None
    end.
  Definition ud_ok (u : option bytes) : Prop :=
    match u with Some s => len s <= C31_USER_DATA_MAX_LENGTH | None => True end.

  Lemma addr_okb_ok l : forallb addr_okb l = true -> Forall addr_ok l.
  Proof.
    intros H. apply Forall_forall. intros a Ha. generalize (proj1 (forallb_forall _ _) H a Ha). clear H Ha.
    destruct a as [u|s|i d]; cbn [C31.addr_okb addr_ok]; unfold opt_is.
    - destruct (parse_url (print_url u)); [|discriminate]. now intros ->%url_eqb_spec.
    - destruct (parse_sock (print_sock s)); [|discriminate]. now intros ->%sock_eqb_spec.
    - intros [[Hi Hd]%andb_prop Hn]%andb_prop. split; [now apply N.leb_le|].
      split; [|now destruct (parse_sock (print_custom i d))].
      exact (proj1 (forallb_Forall_iff _ _ (fun b => N.ltb_lt b 256) d) Hd).
  Qed.

  Definition is_relay (a : addr) : bool := match a with Relay _ => true | _ => false end.

  Lemma parse_printed l tail :
    Forall addr_ok l -> sel ARelay tail = [] -> sel AAddr tail = [] ->
    filter_map parse_relay_value (sel ARelay (map print_addr l ++ tail)) = filter is_relay l /\
    filter_map parse_addr_value (sel AAddr (map print_addr l ++ tail)) = filter (fun a => negb (is_relay a)) l /\
    sel AUserData (map print_addr l ++ tail) = sel AUserData tail.
  Proof.
    intros F Hr Ha. induction F as [|a l Hok _ (IH1 & IH2 & IH3)].
    - cbn [map app]. now rewrite Hr, Ha.
    - destruct a as [u|s|i d]; cbn [map app C31.print_addr sel filter is_relay negb filter_map addr_ok] in Hok |- *.
      + unfold C31.parse_relay_value at 1. rewrite Hok, IH1. auto.
      + unfold C31.parse_addr_value at 1. rewrite Hok, IH2. auto.
      + destruct Hok as (Hi & Hd & Hn).
        unfold C31.parse_addr_value at 1. rewrite Hn, parse_custom_print, IH2 by assumption. auto.
  Qed.

  Lemma add_addrs_in new : forall cur a, In a (add_addrs cur new) <-> In a cur \/ In a new.
  Proof.
    (* [tauto] would also take apart the section's iff hypotheses: they are cleared first *)
    unfold C31.add_addrs. induction new as [|x new IH]; intros cur a; cbn [fold_left In]; [clear; tauto|].
    rewrite IH. destruct (existsb (addr_eqb x) cur) eqn:E.
    - apply existsb_exists in E as (y & Hy & ->%addr_eqb_spec). clear - Hy.
      split; [tauto|]. intros [H|[<-|H]]; auto.
    - rewrite in_app_iff. cbn [In]. clear. tauto.
  Qed.

  Definition same_prop (orig i' : info) : Prop :=
    eid i' = eid orig /\ (forall a, In a (addrs i') <-> In a (addrs orig)) /\ udata i' = udata orig.

  (* hypotheses on the published addresses only: this is what [hyp_holds] can check *)
  Lemma txt_roundtrip_local (i : info) :
    Forall addr_ok (addrs i) -> ud_ok (udata i) ->
    exists i', resolve_txt i = Ok i' /\ same_prop i i'.
  Proof.
    intros Ha Hu. unfold C31.resolve_txt, resolve_with.
    fold from_strings. rewrite from_strings_to_txt_strings.
    eexists. split; [reflexivity|].
    unfold C31.to_attrs. rewrite from_parts_sel. unfold C31.from_attrs. cbn [t_id t_relay t_addr t_ud].
    destruct (parse_printed (addrs i) (match udata i with Some u => [(AUserData, u)] | None => [] end) Ha)
      as (-> & -> & ->); [destruct (udata i); reflexivity..|].
    split; [reflexivity|]. split; cbn [eid addrs udata].
    - (* every address is a relay or not, so the two filters together lose none *)
      intros a. rewrite add_addrs_in, in_app_iff, !filter_In. clear. destruct (is_relay a); cbn; tauto.
    - unfold ud_ok in Hu. destruct (udata i) as [u|]; cbn [sel]; [|reflexivity].
      rewrite (proj2 (N.leb_le _ _) Hu). reflexivity.
  Qed.

  (* what the monitor asks of the packet route *)
  Lemma pkt_roundtrip_local (i : info) :
    Forall addr_ok (addrs i) -> ud_ok (udata i) ->
    resolve_pkt i = Err 1 \/ resolve_pkt i = Err 2 \/
    exists i', resolve_pkt i = Ok i' /\ same_prop i i'.
  Proof.
    intros Ha Hu. unfold C31.resolve_pkt, resolve_pkt_with, encode_packet.
    destruct (existsb _ _); [auto|]. destruct (_ <? _); [auto|].
    right; right. now apply txt_roundtrip_local.
  Qed.

  Lemma subset_spec l1 l2 : subset l1 l2 = true <-> (forall a, In a l1 -> In a l2).
  Proof.
    unfold C31.subset. apply forallb_iff. intros a. apply mem_iff, addr_eqb_spec.
  Qed.

  Lemma same_info_spec orig r :
    same_info orig r = true <-> exists i', r = Ok i' /\ same_prop orig i'.
  Proof.
    unfold C31.same_info, same_prop. apply ok_iff. intros i'. eapply iff_trans.
    { repeat apply andb_assoc_iff. apply andb_iff; [apply bytes_eqb_iff|].
      apply andb_iff; [apply subset_spec|]. apply andb_iff; [apply subset_spec|].
      apply opt_eqb_iff, bytes_eqb_iff. }
    split.
    - intros (H1 & H2 & H3 & H4). repeat split; auto.
    - intros (H1 & H2 & H3). repeat split; auto; intros a; apply H2.
  Qed.

  Hypothesis url_roundtrip : forall u, parse_url (print_url u) = Some u.
  Hypothesis sock_roundtrip : forall s, parse_sock (print_sock s) = Some s.
  Hypothesis sock_has_colon : forall s a, parse_sock s = Some a -> In COLON s.

  (* type invariants of the Rust values: u64 id, u8 data, UserData length *)
  Definition wf_addr (a : addr) : Prop :=
    match a with
    | Custom i d => i <= 18446744073709551615 /\ Forall (fun b => b < 256) d
    | _ => True
    end.
  Definition wf_info (i : info) : Prop := Forall wf_addr (addrs i) /\ ud_ok (udata i).

  Lemma wf_addr_ok a : wf_addr a -> addr_ok a.
  Proof.
    destruct a as [u|s|i d]; cbn [wf_addr addr_ok]; intros H; auto.
    destruct H as [Hi Hd]. split; [exact Hi|]. split; [exact Hd|].
    (* a custom address is not taken for a socket address: its text has no ':' *)
    destruct (parse_sock (print_custom i d)) eqn:E; [|reflexivity].
    apply sock_has_colon in E. now apply print_custom_no_colon in E.
  Qed.

  Lemma txt_roundtrip (i : info) :
    wf_info i -> exists i', resolve_txt i = Ok i' /\ same_prop i i'.
  Proof.
    intros [Ha Hu]. apply txt_roundtrip_local; [|exact Hu].
    eapply Forall_impl; [|exact Ha]. apply wf_addr_ok.
  Qed.

  Lemma packet_roundtrip (i : info) :
    wf_info i -> encode_packet (to_txt_strings (to_attrs i)) = Ok tt ->
    exists i', resolve_pkt i = Ok i' /\ same_prop i i'.
  Proof.
    intros Hw He. unfold C31.resolve_pkt, resolve_pkt_with. rewrite He. now apply txt_roundtrip.
  Qed.
End Proofs.

(* iroh before the fix: user data "a=b=c" comes back as "a" *)
Example old_split_loses_user_data :
  let i := mkInfo (Url:=bytes) (Sock:=bytes) [1] [] (Some (str_bytes "a=b=c")) in
  resolve_txt_old bytes bytes bytes_eqb bytes_eqb id_fn (fun _ => None) id_fn (fun _ => None) i
  = Ok (mkInfo [1] [] (Some (str_bytes "a"))).
Proof. vm_compute. reflexivity. Qed.

Lemma old_split_refuted :
  exists (i : info bytes bytes),
    (match udata i with Some s => len s <= C31_USER_DATA_MAX_LENGTH | None => True end) /\ addrs i = [] /\
    forall i', resolve_txt_old bytes bytes bytes_eqb bytes_eqb id_fn (fun _ => None) id_fn (fun _ => None) i = Ok i' ->
               udata i' <> udata i.
Proof.
  exists (mkInfo [1] [] (Some (str_bytes "a=b=c"))). split; [vm_compute; discriminate|]. split; [reflexivity|].
  intros i' H. rewrite old_split_loses_user_data in H. injection H as <-. cbn. discriminate.
Qed.

(* non-vacuity: a value with all three address kinds, '=' inside the relay URL and the user data,
   resolves to the same addresses (relay first) and the same user data *)
Example roundtrip_example :
  let o := [oe (str_bytes "https://example.com/?a=b") (Some (str_bytes "https://example.com/?a=b")) None;
            oe (str_bytes "127.0.0.1:1234") None (Some (str_bytes "127.0.0.1:1234"))] in
  let i := mkInfo [7] [Ip (str_bytes "127.0.0.1:1234"); Relay (str_bytes "https://example.com/?a=b");
                       Custom 42 [171; 205]] (Some (str_bytes "a=b=c")) in
  c_resolve_txt o i =
  Ok (mkInfo [7] [Relay (str_bytes "https://example.com/?a=b"); Ip (str_bytes "127.0.0.1:1234");
                  Custom 42 [171; 205]] (Some (str_bytes "a=b=c"))).
Proof. vm_compute. reflexivity. Qed.

Lemma mk_user_data_ok u ud : mk_user_data u = Ok ud -> ud = u /\ ud_ok ud.
Proof.
  unfold mk_user_data. destruct u as [s|]; [|now intros [= <-]].
  destruct (N.leb_spec (len s) C31_USER_DATA_MAX_LENGTH); [|discriminate]. now intros [= <-].
Qed.

Definition c_same_prop : cinfo -> cinfo -> Prop := same_prop bytes bytes.

Lemma monitor_spec i o ud :
  hyp_holds i = true -> mk_user_data (in_ud i) = Ok ud ->
  (monitor i o = true <->
   exists r, o = Ok r /\
     (exists t, o_txt r = Ok t /\ c_same_prop (mkInfo (in_id i) (in_addrs i) ud) t) /\
     (o_pkt r = Err 1 \/ o_pkt r = Err 2 \/
      exists p, o_pkt r = Ok p /\ c_same_prop (mkInfo (in_id i) (in_addrs i) ud) p)).
Proof.
  intros Hh Hu. unfold monitor. rewrite Hh, Hu. cbn [negb].
  pose proof (same_info_spec bytes bytes bytes_eqb bytes_eqb bytes_eqb_iff bytes_eqb_iff) as S.
  cbv zeta. apply ok_iff. intros r. apply andb_iff; [apply S|]. split.
  - (* the error code is taken apart as far as the monitor's [Err 1 | Err 2] looks: 0, 1, 2, the rest *)
    intros H. destruct (o_pkt r) as [p|[|[[]|[]|]]|]; try discriminate H; auto.
    right; right. apply S in H as (p' & [= <-] & H). eauto.
  - intros [-> | [-> | (p & -> & H)]]; [reflexivity..|]. apply S. eauto.
Qed.

Lemma model_monitor i : monitor i (model i) = true.
Proof.
  destruct (hyp_holds i) eqn:Hh; [|unfold monitor; now rewrite Hh].
  destruct (mk_user_data (in_ud i)) as [ud|e|] eqn:Hu; [|unfold monitor; now rewrite Hh, Hu..].
  apply (monitor_spec i _ ud Hh Hu). unfold model. rewrite Hu. eexists. split; [reflexivity|].
  apply mk_user_data_ok in Hu as [-> Hlen].
  apply andb_prop in Hh as [_ Ha]. apply addr_okb_ok in Ha; [|apply bytes_eqb_iff..].
  set (inf := mkInfo (in_id i) (in_addrs i) (in_ud i)).
  unfold c_same_prop, c_resolve_txt, c_resolve_pkt. cbn [o_txt o_pkt]. split.
  - exact (txt_roundtrip_local _ _ _ _ _ _ _ _ bytes_eqb_iff bytes_eqb_iff inf Ha Hlen).
  - exact (pkt_roundtrip_local _ _ _ _ _ _ _ _ bytes_eqb_iff bytes_eqb_iff inf Ha Hlen).
Qed.
