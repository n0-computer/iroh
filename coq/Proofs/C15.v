(* C15 — the dial loop as a timed transition system: which arm of the select fires and
   when (sel_spec); a potential that bounds the iterations (phi); the states the loop passes
   through (reach) and, by induction over them, an invariant tying log, queue and attempts
   in flight to the resolution stream (Inv). *)
From Coq Require Import Permutation.
From V Require Import Lib.Base Lib.Lists Gen.Consts Model.C15.
Import C15.
Open Scope N_scope.

Lemma pick_min_nil ds : pick_min ds = None -> ds = [].
Proof.
  destruct ds as [|d r]; [reflexivity|]. cbn.
  destruct (pick_min r) as [[e r']|]; [destruct (dend e <? dend d)|]; discriminate.
Qed.

Lemma pick_min_spec ds : forall d r, pick_min ds = Some (d, r) ->
  Permutation ds (d :: r) /\ (forall e, In e ds -> dend d <= dend e).
Proof.
  induction ds as [|x ds IH]; intros d r H; [discriminate|]. cbn in H.
  destruct (pick_min ds) as [[e r']|] eqn:PM.
  - destruct (IH e r' eq_refl) as [P M].
    destruct (N.ltb_spec (dend e) (dend x)); injection H as <- <-.
    + split; [rewrite P; apply perm_swap|]. intros y [<-|Hy]; [lia|auto].
    + split; [reflexivity|]. intros y [<-|Hy]; [lia|]. specialize (M _ Hy). lia.
  - apply pick_min_nil in PM as ->. injection H as <- <-.
    split; [reflexivity|]. intros e [<-|[]]. lia.
Qed.

Lemma pick_min_in ds d r : pick_min ds = Some (d, r) -> In d ds.
Proof.
  intros H. apply pick_min_spec in H as [P _]. apply (Permutation_in _ (Permutation_sym P)). now left.
Qed.

Lemma find_fam_spec w q :
  match find_fam w q with
  | Some (a, r) => Permutation q (a :: r) /\ v6 a = w
  | None => forall b, In b q -> v6 b <> w
  end.
Proof.
  induction q as [|x q IH]; cbn; [intros b []|].
  destruct (Bool.eqb (v6 x) w) eqn:E; [split; [reflexivity|now apply eqb_prop]|].
  destruct (find_fam w q) as [[b r]|].
  - destruct IH as [P F]. split; [|exact F]. rewrite P. apply perm_swap.
  - intros b [<-|Hb]; [|now apply IH]. intros F. rewrite F, eqb_reflx in E. discriminate.
Qed.

Lemma pop_family_spec q w :
  match pop_family q w with
  | Some (a, r, w') => Permutation q (a :: r) /\ w' = negb (v6 a) /\
                       ((exists b, In b q /\ v6 b = w) -> v6 a = w)
  | None => q = []
  end.
Proof.
  unfold pop_family. destruct q as [|a0 q0]; [reflexivity|].
  pose proof (find_fam_spec w (a0 :: q0)) as F. destruct (find_fam w (a0 :: q0)) as [[b r]|].
  - destruct F as [P V]. auto.
  - split; [reflexivity|]. split; [reflexivity|]. intros (b & Hb & Vb). destruct (F b Hb Vb).
Qed.

Lemma dial_res_indep a s : snd (dial_end a s) = snd (dial_end a 0).
Proof. unfold dial_end. destruct (oc a) as [l|l|]; try destruct (l <=? DT); reflexivity. Qed.

Lemma dial_end_ge a s : s <= fst (dial_end a s).
Proof. unfold dial_end. destruct (oc a) as [l|l|]; try destruct (l <=? DT); apply N.le_add_r. Qed.

Lemma dres_succ a t : dres (mkDial a t) = None <-> succ a = true.
Proof.
  unfold dres, succ. cbn. rewrite (dial_res_indep a t).
  destruct (snd (dial_end a 0)); split; congruence.
Qed.

(* when the stream yields next; select (Model/C15.v) spells this match inline, hence the folds
   in select_cases *)
Definition stime (sc : scenario) (s : st) : N :=
  match rest s with (t, _) :: _ => t | [] => tend sc end.

Definition advance (s : st) (t : N) : st :=
  mkSt t (rest s) (fin s) (queue s) (want6 s) (dials s) (started s) (lerr s) (timer s) (log s).

(* Neither an attempt in flight nor the stream is ready before t; of the timer nothing is kept. *)
Definition wait (sc : scenario) (s : st) (t : N) : Prop :=
  now s <= t /\
  (forall e, In e (dials s) -> t <= N.max (now s) (dend e)) /\
  (fin s = false -> t <= N.max (now s) (stime sc s)).

(* What the handler of a ready arm does when the loop goes on, s being the state at that
   instant.  ETimer's last premise: the stream arm, which precedes the timer arm, is not ready. *)
Inductive event (sc : scenario) (s : st) : st -> Prop :=
| EFail d r c : pick_min (dials s) = Some (d, r) -> dend d <= now s -> dres d = Some c ->
    event sc s (mkSt (now s) (rest s) (fin s) (queue s) (want6 s) r (started s) (Some (c, now s, true))
                     (match r with [] => None | _ :: _ => timer s end) (log s))
| EEnd : fin s = false -> rest s = [] -> tend sc <= now s ->
    event sc s (mkSt (now s) [] true (queue s) (want6 s) (dials s) (started s) (lerr s)
                     (if started s then timer s else None) (log s))
| EAddr t0 a r : fin s = false -> rest s = (t0, IAddr a) :: r -> t0 <= now s ->
    event sc s (mkSt (now s) r (fin s) (queue s ++ [a]) (want6 s) (dials s) (started s) (lerr s)
                     (if started s then timer s
                      else if Bool.eqb (pref sc) (v6 a) then None
                      else match timer s with None => Some (now s + RD) | Some d => Some d end)
                     (log s))
| EErr t0 c r : fin s = false -> rest s = (t0, IErr c) :: r -> t0 <= now s ->
    event sc s (mkSt (now s) r (fin s) (queue s) (want6 s) (dials s) (started s)
                     (Some (c, now s, false)) (timer s) (log s))
| ETimer dl : timer s = Some dl -> dl <= now s -> (fin s = false -> now s < stime sc s) ->
    event sc s (mkSt (now s) (rest s) (fin s) (queue s) (want6 s) (dials s) (started s) (lerr s)
                     None (log s)).

(* The loop sleeps until the first instant t at which an arm is ready; the handler of an
   arm ready at t runs (of the arm order only stream-before-timer is kept, in ETimer). *)
Definition sel_spec (sc : scenario) (s : st) (x : stepres) : Prop :=
  match x with
  | Next s' => exists t, wait sc s t /\ event sc (advance s t) s'
  | Done r s' => exists d rs, pick_min (dials s) = Some (d, rs) /\ dres d = None /\ r = Ok (daddr d) /\
      s' = mkSt (N.max (now s) (dend d)) (rest s) (fin s) (queue s) (want6 s) rs (started s) (lerr s)
                (timer s) (log s)
  | Stuck _ => dials s = [] /\ fin s = true /\ timer s = None
  end.

(* Of three arms with optional ready times the earliest fires, the first on a tie. *)
Lemma select3 {R} (P : R -> Prop) (a b c : option N) (ra rb rc : R) :
  (forall t, a = Some t -> (forall u, b = Some u -> t <= u) -> (forall u, c = Some u -> t <= u) -> P ra) ->
  (forall t, b = Some t -> (forall u, a = Some u -> t < u) -> (forall u, c = Some u -> t <= u) -> P rb) ->
  (forall t, c = Some t -> (forall u, a = Some u -> t < u) -> (forall u, b = Some u -> t < u) -> P rc) ->
  (a = None -> b = None -> c = None -> P rc) ->
  P (if le_opt a b && le_opt a c then ra else if le_opt b c then rb else rc).
Proof.
  (* the eight cases of which arms are enabled, with the comparisons of those that are: each
     picks its arm, whose premises are then orderings among x, y, z *)
  intros Ha Hb Hc Hn. destruct a as [x|], b as [y|], c as [z|]; cbn [le_opt andb];
    repeat match goal with |- context[?p <=? ?q] => destruct (N.leb_spec p q); cbn [andb] end;
    first [apply Hn; reflexivity
          |(eapply Ha || eapply Hb || eapply Hc); [reflexivity|intros u [= <-] || intros u [=]; (assumption || N.order) ..]].
Qed.

(* the premise in the shape select3 hands it over *)
Lemma dials_wait s t :
  (forall u, match pick_min (dials s) with
             | Some (d, _) => Some (N.max (now s) (dend d))
             | None => None
             end = Some u -> t <= u) ->
  forall e, In e (dials s) -> t <= N.max (now s) (dend e).
Proof.
  intros H e He. destruct (pick_min (dials s)) as [[d r]|] eqn:PM.
  - rewrite (H _ eq_refl). apply N.max_le_compat_l. now apply (pick_min_spec _ _ _ PM).
  - apply pick_min_nil in PM. now rewrite PM in He.
Qed.

Lemma select_cases sc s x : select sc s = x -> sel_spec sc s x.
Proof.
  intros <-. unfold select. cbv zeta. apply select3.
  - intros t Ed Hs Ht. pose proof (dials_wait s t) as Hd. rewrite Ed in Hd.
    destruct (pick_min (dials s)) as [[d r]|] eqn:PM; [|discriminate]. injection Ed as <-.
    unfold on_dial. destruct (dres d) as [c|] eqn:R; [|exists d, r; auto]. eexists. split.
    + split; [apply N.le_max_l|split; [apply Hd; now intros u [= <-]|]].
      intros F. apply Hs. now rewrite F.
    + exact (EFail sc (advance s _) d r c PM (N.le_max_r _ _) R).
  - intros t Es Hd Ht. destruct (fin s) eqn:F; [discriminate|]. injection Es as <-.
    assert (W : wait sc s (N.max (now s) (stime sc s))).
    { split; [apply N.le_max_l|split; [|reflexivity]].
      apply dials_wait. intros u Eu. apply N.lt_le_incl, Hd, Eu. }
    fold (stime sc s). unfold on_stream.
    pose proof (N.le_max_r (now s) (stime sc s)) as Rd. unfold stime in Rd at 1.
    destruct (rest s) as [|[t0 [a|c]] r] eqn:Rs; eexists; (split; [exact W|]).
    + exact (EEnd sc (advance s _) F Rs Rd).
    + exact (EAddr sc (advance s _) t0 a r F Rs Rd).
    + exact (EErr sc (advance s _) t0 c r F Rs Rd).
  - intros t Et Hd Hs. destruct (timer s) as [dl|] eqn:T; [|discriminate]. injection Et as <-.
    fold (stime sc s) in Hs. exists (N.max (now s) dl). split.
    + split; [apply N.le_max_l|split].
      * apply dials_wait. intros u Eu. apply N.lt_le_incl, Hd, Eu.
      * intros F. apply N.lt_le_incl, Hs. now rewrite F.
    + apply (ETimer sc (advance s _) dl T (N.le_max_r _ _)). intros F. cbn [now fin advance] in F |- *.
      rewrite F in Hs. specialize (Hs _ eq_refl).
      apply N.max_lt_iff in Hs as [Hs|Hs]; [|exact Hs]. pose proof (N.le_max_l (now s) dl). N.order.
  - intros Ed Es Et. destruct (pick_min (dials s)) as [[d r]|] eqn:PM; [discriminate|].
    destruct (fin s) eqn:F; [|discriminate]. destruct (timer s) eqn:T; [discriminate|].
    apply pick_min_nil in PM. cbn. auto.
Qed.

Lemma event_frame sc s s' : event sc s s' ->
  now s' = now s /\ log s' = log s /\ started s' = started s /\ want6 s' = want6 s /\
  incl (rest s') (rest s).
Proof.
  destruct 1 as [| |? ? ? _ Rs _|? ? ? _ Rs _|]; cbn; rewrite ?Rs; auto 7 using incl_refl, incl_nil_l, incl_tl.
Qed.

Lemma select_next_mono sc s s' : select sc s = Next s' -> now s <= now s'.
Proof.
  intros H. apply select_cases in H as (t & (L & _) & E). now apply event_frame in E as (-> & _).
Qed.

(* top would start nothing *)
Definition topped (s : st) : Prop := timer s = None -> queue s = [].

Inductive top_case (s : st) : st -> Prop :=
| TopIdle : topped s -> top_case s s
| TopStart a q :
    timer s = None -> Permutation (queue s) (a :: q) ->
    ((exists b, In b (queue s) /\ v6 b = want6 s) -> v6 a = want6 s) ->
    top_case s (mkSt (now s) (rest s) (fin s) q (negb (v6 a)) (dials s ++ [mkDial a (now s)]) true
                     (lerr s) (Some (now s + CAD)) ((now s, a) :: log s)).

Lemma top_cases s : top_case s (top s).
Proof.
  unfold top. destruct (timer s) eqn:T; [apply TopIdle; congruence|].
  pose proof (pop_family_spec (queue s) (want6 s)) as P.
  destruct (pop_family (queue s) (want6 s)) as [[[a q] w]|].
  - destruct P as (Pq & -> & Pw). now apply TopStart.
  - now apply TopIdle.
Qed.

Lemma top_idle s : timer (top s) = None -> top s = s /\ queue s = [].
Proof. destruct (top_cases s) as [Q|a q _ _ _]; [auto|discriminate]. Qed.

Lemma top_post s : topped (top s).
Proof.
  intros T. now apply top_idle in T as [-> Q].
Qed.

Lemma exhausted_spec s : exhausted s = true <-> fin s = true /\ queue s = [] /\ dials s = [].
Proof. apply andb_assoc_iff, andb_iff; [reflexivity|apply andb_iff; apply nil_iff]. Qed.

Lemma no_deadlock sc s s' : step sc s <> Stuck s'.
Proof.
  unfold step. destruct (exhausted s) eqn:E; [discriminate|]. intros H.
  (* nothing in flight or to come, and nothing queued either: the loop has exited *)
  apply select_cases in H as (D & F & T). apply top_idle in T as [Es Q]. rewrite Es in D, F.
  apply not_true_iff_false in E. apply E, exhausted_spec. auto.
Qed.

Lemma step_next sc s s' : step sc s = Next s' ->
  exists t, wait sc (top s) t /\ event sc (advance (top s) t) s'.
Proof. unfold step. destruct (exhausted s); [discriminate|exact (select_cases sc (top s) (Next s'))]. Qed.

Definition is_some {A} (o : option A) : bool := match o with Some _ => true | None => false end.
Definition is_nil {A} (l : list A) : bool := match l with [] => true | _ => false end.

(* decreases in every iteration that goes on.  A stream item weighs 3: yielded, an address goes
   on the queue (2) and may set the timer (1).  A queued address weighs 2: top starts its
   attempt (a dial, 1) and sets the timer (1).  The last summand is spent when the first address
   sets the resolution-delay timer although nothing has left the queue. *)
Definition phi (s : st) : nat :=
  (3 * length (rest s) + Nat.b2n (negb (fin s)) + 2 * length (queue s) + length (dials s)
   + Nat.b2n (is_some (timer s)) + Nat.b2n (negb (started s) && is_nil (queue s)))%nat.

Lemma phi_top s : (phi (top s) <= phi s)%nat.
Proof.
  destruct (top_cases s) as [_|a q T Pq _]; [lia|]. apply Permutation_length in Pq.
  unfold phi. cbn. rewrite T, Pq, app_length. cbn.
  destruct (queue s); [discriminate|]. cbn. rewrite andb_false_r. cbn. lia.
Qed.

Lemma is_some_le {A} (o o' : option A) :
  o' = o \/ o' = None -> (Nat.b2n (is_some o') <= Nat.b2n (is_some o))%nat.
Proof. intros [->| ->]; [apply le_n|apply Nat.le_0_l]. Qed.

Lemma phi_event sc s s' : topped s -> event sc s s' -> (phi s' < phi s)%nat.
Proof.
  intros TP [d r c PM _ _|F Rs _|t0 a r F Rs _|t0 c r F Rs _|dl T _ _]; unfold phi;
    cbn [rest fin queue dials timer started]; rewrite ?Rs, ?F, ?T; cbn [length negb Nat.b2n is_some].
  - apply pick_min_spec in PM as [Pm _]. apply Permutation_length in Pm. rewrite Pm. cbn.
    assert (Ht := is_some_le (timer s) (match r with [] => None | _ :: _ => timer s end)
                    ltac:(destruct r; auto)).
    lia.
  - assert (Ht := is_some_le (timer s) (if started s then timer s else None)
                    ltac:(destruct (started s); auto)).
    lia.
  - rewrite app_length. cbn.
    replace (is_nil (queue s ++ [a])) with false by (now destruct (queue s)). rewrite andb_false_r.
    set (t' := if started s then _ else _).
    assert (Ht : (Nat.b2n (is_some t') <= Nat.b2n (is_some (timer s)) + Nat.b2n (negb (started s) && is_nil (queue s)))%nat).
    { unfold t'. destruct (started s); [apply Nat.le_add_r|].
      destruct (Bool.eqb (pref sc) (v6 a)); [apply Nat.le_0_l|].
      (* a timer is set only while the queue is empty, which the last summand pays for *)
      destruct (timer s) eqn:T; [apply Nat.le_add_r|].
      rewrite (TP T). apply le_n. }
    cbn [Nat.b2n]. lia.
  - lia.
  - lia.
Qed.

Lemma phi_step sc s s' : step sc s = Next s' -> (phi s' < phi s)%nat.
Proof.
  intros H. apply step_next in H as (t & _ & E). apply phi_event in E; [|apply top_post].
  pose proof (phi_top s). exact (Nat.lt_le_trans _ _ _ E H).
Qed.

(* The states the loop passes through, in moves of a third of an iteration. *)
Inductive reach (sc : scenario) : st -> Prop :=
| R_init : reach sc (init sc)
| R_top s : reach sc s -> reach sc (top s)
| R_wait s t : reach sc s -> wait sc s t -> reach sc (advance s t)
| R_event s s' : reach sc s -> topped s -> event sc s s' -> reach sc s'.

Lemma reach_step sc s s' : reach sc s -> step sc s = Next s' -> reach sc s'.
Proof.
  intros R S. apply step_next in S as (t & W & E).
  exact (R_event _ _ _ (R_wait _ _ t (R_top _ _ R) W) (top_post s) E).
Qed.

Lemma run_reach sc : forall f s, reach sc s -> (phi s < f)%nat ->
  exists r s' u, run f sc s = Some (r, s') /\ reach sc u /\ step sc u = Done r s'.
Proof.
  induction f as [|f IH]; intros s R L; [lia|]. cbn.
  destruct (step sc s) as [r0 s0|s0|s0] eqn:S.
  - eauto 6.
  - apply IH; [exact (reach_step _ _ _ R S)|]. apply phi_step in S. lia.
  - destruct (no_deadlock _ _ _ S).
Qed.

(* fuel_of sc = 3 * #items + 3 is phi (init sc) + 1 *)
Lemma run_init sc : exists r s' u,
  run (fuel_of sc) sc (init sc) = Some (r, s') /\ reach sc u /\ step sc u = Done r s'.
Proof. apply run_reach; [apply R_init|]. unfold phi, fuel_of, init. cbn. lia. Qed.

Lemma fuel_suffices sc : exists r s, run (fuel_of sc) sc (init sc) = Some (r, s).
Proof. destruct (run_init sc) as (r & s & _ & H & _). eauto. Qed.

Theorem run_sc_cases sc r s' : run_sc sc = (r, s') ->
  exists u, reach sc u /\ log s' = log u /\
    match r with
    | Ok a => exists d rs, pick_min (dials u) = Some (d, rs) /\ dres d = None /\ a = daddr d /\
                now s' = N.max (now u) (dend d)
    | Err _ => exhausted u = true /\ s' = u
    | Panic => False
    end.
Proof.
  unfold run_sc. destruct (run_init sc) as (r0 & s0 & s & -> & R & S).
  intros [= -> ->]. unfold step in S. destruct (exhausted s) eqn:Ex.
  - injection S as <- <-. exists s. auto.
  - exists (top s). split; [exact (R_top _ _ R)|].
    apply select_cases in S as (d & rs & PM & Rd & -> & ->). cbn. eauto 7.
Qed.

Definition addrs_of (s : stream) : list addr := map snd (stream_addrs s).

Lemma stream_addrs_app x y : stream_addrs (x ++ y) = stream_addrs x ++ stream_addrs y.
Proof.
  induction x as [|[t [a|c]] x IH]; cbn; [reflexivity| |assumption]. now rewrite IH.
Qed.
Lemma addrs_of_app x y : addrs_of (x ++ y) = addrs_of x ++ addrs_of y.
Proof. unfold addrs_of. now rewrite stream_addrs_app, map_app. Qed.

Record Inv (sc : scenario) (s : st) : Prop := mkInv {
  I_split : exists pre, items sc = pre ++ rest s /\
                        Permutation (addrs_of pre) (map snd (log s) ++ queue s);
  I_fin : fin s = true -> rest s = [] /\ tend sc <= now s;
  I_dlog : forall d, In d (dials s) -> In (dstart d, daddr d) (log s);
  I_log : forall t a, In (t, a) (log s) ->
            In (mkDial a t) (dials s) \/ (succ a = false /\ dend_at t a <= now s);
  I_fut : forall d, In d (dials s) -> now s <= dend d
}.

Lemma inv_init sc : Inv sc (init sc).
Proof.
  constructor; cbn; [|discriminate|contradiction..]. exists []. split; [reflexivity|constructor].
Qed.

Lemma inv_top sc s : Inv sc s -> Inv sc (top s).
Proof.
  intros I. destruct (top_cases s) as [_|a q _ Pq _]; [assumption|].
  destruct I as [(pre & Hs & Hp) Hf Hd Hl Hfu]. constructor; cbn.
  - exists pre. split; [assumption|]. apply (perm_trans Hp), (perm_trans (Permutation_app_head _ Pq)), Permutation_sym, Permutation_middle.
  - assumption.
  - intros d Hd'. apply in_app_or in Hd' as [Hd'|[<-|[]]]; [right; auto|left; reflexivity].
  - intros t b [E|Hb].
    + inversion E; subst. left. apply in_or_app. right. left. reflexivity.
    + destruct (Hl _ _ Hb) as [H|H]; [left; apply in_or_app; auto|right; assumption].
  - intros d Hd'. apply in_app_or in Hd' as [Hd'|[<-|[]]]; [auto|apply dial_end_ge].
Qed.

Lemma inv_advance sc s t : Inv sc s -> wait sc s t -> Inv sc (advance s t).
Proof.
  intros [Sp Hf Hd Hl Hfu] (Hn & Hw & _). constructor; cbn; auto.
  - intros Fi. destruct (Hf Fi). split; [assumption|lia].
  - intros t0 a Ha. destruct (Hl _ _ Ha) as [Hi|[S L]]; [left; assumption|right; split; [assumption|lia]].
  - intros e He. specialize (Hw _ He). specialize (Hfu _ He). lia.
Qed.

Lemma inv_event sc s s' : Inv sc s -> event sc s s' -> Inv sc s'.
Proof.
  intros [(pre & Hs & Hp) Hf Hd Hl Hfu]
    [d r c PM Rd R|F Rs Rd|t0 a r F Rs Rd|t0 c r F Rs Rd|dl T Rd _].
  - apply pick_min_spec in PM as [P _].
    assert (Hr : incl r (dials s))
      by (intros e He; apply (Permutation_in _ (Permutation_sym P)); now right).
    constructor; cbn; [eauto..| |eauto].
    (* a logged attempt that has left dials is the one that has just failed *)
    intros t a Ha. destruct (Hl _ _ Ha) as [Hi|Hi]; [|right; assumption].
    apply (Permutation_in _ P) in Hi as [->|Hi]; [right|left; assumption].
    split; [|exact Rd]. destruct (succ a) eqn:Sa; [|reflexivity].
    apply dres_succ with (t := t) in Sa. congruence.
  - constructor; cbn; [|auto..]. exists pre. rewrite Hs, Rs. auto.
  - constructor; cbn; [|congruence|auto..].
    exists (pre ++ [(t0, IAddr a)]). split.
    + rewrite <- app_assoc, Hs, Rs. reflexivity.
    + rewrite addrs_of_app, app_assoc. apply Permutation_app_tail, Hp.
  - constructor; cbn; [|congruence|auto..].
    exists (pre ++ [(t0, IErr c)]). rewrite <- app_assoc, addrs_of_app, app_nil_r, Hs, Rs. auto.
  - constructor; cbn; eauto.
Qed.

Lemma inv_reach sc s : reach sc s -> Inv sc s.
Proof. induction 1; eauto using inv_init, inv_top, inv_advance, inv_event. Qed.

Lemma run_sc_not_panic sc s : run_sc sc <> (Panic, s).
Proof. intros H. now apply run_sc_cases in H as (u & _ & _ & []). Qed.

Lemma run_sc_err sc c s : run_sc sc = (Err c, s) -> Inv sc s /\ exhausted s = true.
Proof. intros H. apply run_sc_cases in H as (u & R & _ & E & ->). split; [now apply inv_reach|exact E]. Qed.

Lemma returns_first_success sc a s :
  run_sc sc = (Ok a, s) ->
  exists t, In (t, a) (log s) /\ succ a = true /\ dend_at t a = now s /\
    forall t' a', In (t', a') (log s) -> succ a' = true -> now s <= dend_at t' a'.
Proof.
  intros H. apply run_sc_cases in H as (u & I & -> & d & rs & PM & R & -> & ->). apply inv_reach in I.
  destruct (pick_min_spec _ _ _ PM) as [_ Mn]. pose proof (pick_min_in _ _ _ PM) as Hd.
  rewrite (N.max_r _ _ (I_fut _ _ I _ Hd)).
  exists (dstart d). split; [exact (I_dlog _ _ I _ Hd)|].
  destruct d as [a t]. split; [now apply (dres_succ a t)|]. split; [reflexivity|].
  intros t' a' Hin Sa. destruct (I_log _ _ I _ _ Hin) as [Hi|[Sf _]]; [|congruence].
  exact (Mn _ Hi).
Qed.

Lemma all_attempted_or_won sc c s :
  run_sc sc = (Err c, s) -> Permutation (addrs_of (items sc)) (map snd (log s)).
Proof.
  intros H. apply run_sc_err in H as [[(pre & Hs & Hp) Hf _ _ _] E].
  apply exhausted_spec in E as (F & Q & _). destruct (Hf F) as [Rn _].
  rewrite Rn, app_nil_r in Hs. rewrite Q, app_nil_r, <- Hs in Hp. exact Hp.
Qed.

Lemma fails_only_when_exhausted sc c s :
  run_sc sc = (Err c, s) ->
  fin s = true /\ rest s = [] /\ tend sc <= now s /\ queue s = [] /\ dials s = [] /\
  forall t a, In (t, a) (log s) -> succ a = false /\ dend_at t a <= now s.
Proof.
  intros H. apply run_sc_err in H as [[_ Hf _ Hl _] E].
  apply exhausted_spec in E as (F & Q & D). destruct (Hf F) as [Rn Tn].
  repeat (split; [assumption|]). intros t a H.
  destruct (Hl _ _ H) as [Hi|R]; [now rewrite D in Hi|exact R].
Qed.

(* sorted by time; a Fixpoint, so that on a concrete stream it computes to a conjunction
   (first_pref_nonvacuous) *)
Fixpoint sorted (s : stream) : Prop :=
  match s with
  | [] => True
  | x :: r => (forall y, In y r -> fst x <= fst y) /\ sorted r
  end.

Lemma sorted_app_r x y : sorted (x ++ y) -> sorted y.
Proof. induction x as [|a x IH]; cbn; [auto|]. intros [_ H]. auto. Qed.

Lemma sorted_const_app t l r :
  (forall x, In x l -> fst x = t) -> (forall y, In y r -> t <= fst y) -> sorted r -> sorted (l ++ r).
Proof.
  induction l as [|x l IH]; cbn; intros Hl Hr Sr; [assumption|]. split; [|now apply IH; auto].
  intros y Hy. rewrite (Hl x (or_introl eq_refl)).
  apply in_app_or in Hy as [Hy|Hy]; [rewrite (Hl y (or_intror Hy)); lia|auto].
Qed.

Lemma items_of_time l x : In x (items_of l) -> fst x = lt l.
Proof.
  unfold items_of. destruct (lr l); [|intros []]. intros H. now apply in_map_iff in H as (a & <- & _).
Qed.

(* the items of the lookup that completes first, those of the other, items at that time *)
Lemma sorted_lookups a b tail : lt a <= lt b -> (forall y, In y tail -> fst y = lt b) ->
  sorted ((items_of a ++ items_of b) ++ tail).
Proof.
  intros L Ht. rewrite <- app_assoc.
  apply (sorted_const_app (lt a)); [apply items_of_time| |].
  - intros y Hy. apply in_app_or in Hy as [Hy|Hy]; [apply items_of_time in Hy|apply Ht in Hy]; lia.
  - apply (sorted_const_app (lt b)); [apply items_of_time| |].
    + intros y Hy. apply Ht in Hy. lia.
    + rewrite <- (app_nil_r tail). apply (sorted_const_app (lt b)); [assumption|intros y []|exact I].
Qed.

Lemma tail_time (ra rb : option (list addr)) (body : stream) (te : N) y :
  In y match ra, rb with
       | None, None => [(te, IErr 11)]
       | _, _ => match body with [] => [(te, IErr 10)] | _ :: _ => [] end
       end -> fst y = te.
Proof. destruct ra, rb, body; (intros [<-|[]] || intros []); reflexivity. Qed.

Lemma resolve_sorted l4 l6 : sorted (fst (resolve l4 l6)).
Proof.
  unfold resolve. cbv zeta. cbn [fst].
  destruct (N.leb_spec (lt (eff l4)) (lt (eff l6))) as [L|L];
    [rewrite (N.max_r _ _ L)|apply N.lt_le_incl in L; rewrite (N.max_l _ _ L)];
    apply sorted_lookups; try exact L; intros y; apply tail_time.
Qed.

Lemma sc_of_sorted i : sorted (items (sc_of i)).
Proof.
  unfold sc_of. pose proof (resolve_sorted (look4 i) (look6 i)) as H.
  now destruct (resolve (look4 i) (look6 i)).
Qed.

Lemma stream_addrs_in x r : In x (stream_addrs r) -> exists it, In (fst x, it) r.
Proof.
  induction r as [|[t [a|c]] r IH]; cbn; [intros []| |].
  - intros [<-|H]; [exists (IAddr a); left; reflexivity|]. destruct (IH H) as [it Hi]. eauto.
  - intros H. destruct (IH H) as [it Hi]. eauto.
Qed.

(* What has resolved by now has been yielded, and what has been yielded is in the log or in
   the queue. *)
Lemma untried_queue sc s f : Inv sc s -> (forall x, In x (rest s) -> now s <= fst x) ->
  untried (stream_addrs (items sc)) (log s) (now s) f = true ->
  exists b, In b (queue s) /\ v6 b = f.
Proof.
  intros [(pre & Hs & Hp) _ _ _ _] Hr U. apply Nat.ltb_lt in U. unfold cnt_fam, cnt_before in U.
  rewrite Hs, stream_addrs_app, filter_app, app_length, (filter_none _ (stream_addrs (rest s))) in U.
  2:{ intros x Hx. apply stream_addrs_in in Hx as [it Hi]. apply Hr, N.ltb_ge in Hi. cbn in Hi.
      rewrite Hi. apply andb_false_r. }
  pose proof (Permutation_length (Permutation_filter (fun a => Bool.eqb (v6 a) f) _ _ Hp)) as E.
  unfold addrs_of in E. rewrite filter_app, app_length, !filter_length_map in E.
  pose proof (filter_length_le (fun x => fst x <? now s)
                (filter (fun x => Bool.eqb (v6 (snd x)) f) (stream_addrs pre))) as L.
  rewrite filter_filter_and in L. cbn beta in L.
  destruct (filter_length_pos (fun a => Bool.eqb (v6 a) f) (queue s)) as (b & Hb & V).
  - cbn in U. lia.
  - exists b. split; [assumption|now apply eqb_prop].
Qed.

Lemma rest_stime sc s x : sorted (items sc) -> Inv sc s -> In x (rest s) ->
  fin s = false /\ stime sc s <= fst x.
Proof.
  intros So I Hx. split.
  - destruct (fin s) eqn:F; [|reflexivity]. destruct (I_fin _ _ I F) as [E _]. now rewrite E in Hx.
  - destruct (I_split _ _ I) as (pre & Hs & _). rewrite Hs in So. apply sorted_app_r in So.
    unfold stime. destruct (rest s) as [|[t0 it] r]; [destruct Hx|]. destruct So as [Hh _].
    destruct Hx as [<-|Hx]; [reflexivity|exact (Hh _ Hx)].
Qed.

(* the invariant under a sorted stream *)
Record InvS (sc : scenario) (s : st) : Prop := mkInvS {
  S_fut : forall x, In x (rest s) -> now s <= fst x;
  S_want : match log s with y :: _ => want6 s = negb (v6 (snd y)) | [] => want6 s = pref sc end;
  S_alt : alt_ok (stream_addrs (items sc)) (log s) = true
}.

Lemma invS_init sc : InvS sc (init sc).
Proof. constructor; cbn; auto. intros x Hx. apply N.le_0_l. Qed.

Lemma alt_ok_cons2 ads x y l : alt_ok ads (x :: y :: l) =
  (if untried ads (y :: l) (fst x) true && untried ads (y :: l) (fst x) false
   then negb (Bool.eqb (v6 (snd x)) (v6 (snd y))) else true) && alt_ok ads (y :: l).
Proof. reflexivity. Qed.

Lemma invS_top sc s : Inv sc s -> InvS sc s -> InvS sc (top s).
Proof.
  intros I J. destruct (top_cases s) as [_|a q _ Pq Pw]; [assumption|].
  destruct J as [Hf Hw Ha]. constructor; try assumption; [reflexivity|].
  cbn [log]. destruct (log s) as [|y l] eqn:L; [reflexivity|].
  rewrite alt_ok_cons2, Ha, andb_true_r. cbn [fst snd].
  destruct (untried _ _ _ true) eqn:U1; [|reflexivity].
  destruct (untried _ _ _ false) eqn:U2; [|reflexivity]. cbn.
  (* both families are queued, so the wanted one is taken: the other than y's *)
  rewrite <- L in U1, U2.
  assert (Hb : exists b, In b (queue s) /\ v6 b = want6 s).
  { destruct (want6 s); eapply untried_queue; eauto. }
  rewrite (Pw Hb), Hw. now destruct (v6 (snd y)).
Qed.

(* The stream yields nothing before the loop wakes up. *)
Lemma invS_advance sc : sorted (items sc) ->
  forall s t, Inv sc s -> InvS sc s -> wait sc s t -> InvS sc (advance s t).
Proof.
  intros So s t I [Hf Hw Ha] (_ & _ & W). constructor; try assumption. cbn. intros x Hx.
  destruct (rest_stime sc s x So I Hx) as [F L]. specialize (W F). specialize (Hf x Hx). lia.
Qed.

Lemma invS_event sc s s' : InvS sc s -> event sc s s' -> InvS sc s'.
Proof.
  intros [Hf Hw Ha] E.
  apply event_frame in E as (N & L & _ & Ww & R). constructor; rewrite ?N, ?L, ?Ww; auto.
Qed.

Lemma invS_reach sc s : sorted (items sc) -> reach sc s -> InvS sc s.
Proof.
  intros So. induction 1 as [|s R J|s t R J W|s s' R J _ E];
    eauto using invS_init, invS_top, invS_advance, invS_event, inv_reach.
Qed.

Lemma alternates_while_both sc r s : sorted (items sc) ->
  run_sc sc = (r, s) -> alt_ok (stream_addrs (items sc)) (log s) = true.
Proof.
  intros So H. apply run_sc_cases in H as (u & R & -> & _). exact (S_alt _ _ (invS_reach _ _ So R)).
Qed.

Lemma alt_ok_spec ads rl : alt_ok ads rl = true ->
  forall l1 x y l2, rl = l1 ++ x :: y :: l2 ->
    untried ads (y :: l2) (fst x) true = true -> untried ads (y :: l2) (fst x) false = true ->
    v6 (snd x) <> v6 (snd y).
Proof.
  induction rl as [|z rl IH]; intros H l1 x y l2 E U1 U2; [destruct l1; discriminate|].
  destruct l1 as [|w l1]; injection E as -> ->.
  - rewrite alt_ok_cons2, U1, U2 in H. cbn in H. apply andb_prop in H as [H _].
    intros V. rewrite V, eqb_reflx in H. discriminate.
  - apply IH with (l1 := l1) (l2 := l2); auto.
    destruct (l1 ++ x :: y :: l2) eqn:X; [destruct l1; discriminate|].
    rewrite alt_ok_cons2 in H. apply andb_prop in H as [_ H]. exact H.
Qed.

Lemma alternates_while_both_prop sc r s : sorted (items sc) -> run_sc sc = (r, s) ->
  forall l1 x y l2, log s = l1 ++ x :: y :: l2 ->
    untried (stream_addrs (items sc)) (y :: l2) (fst x) true = true ->
    untried (stream_addrs (items sc)) (y :: l2) (fst x) false = true ->
    v6 (snd x) <> v6 (snd y).
Proof. intros So H. apply alt_ok_spec. eapply alternates_while_both; eassumption. Qed.

Section First.
Variable sc : scenario.
Variable t0 : N.
Variable a0 : addr.
Variable tl : list (N * addr).
Hypothesis Hso : sorted (items sc).
Hypothesis Hads : stream_addrs (items sc) = (t0, a0) :: tl.
Variable t1 : N.
Variable a1 : addr.
Hypothesis Hin1 : In (t1, a1) (stream_addrs (items sc)).
Hypothesis Hpref1 : v6 a1 = pref sc.
Hypothesis Hwithin : t1 <= t0 + RD.

(* Before the first attempt: no preferred address is queued and the resolution delay runs
   from the first address, or one is queued and nothing delays its attempt. *)
Definition FInv (s : st) : Prop :=
  if started s then exists l x, log s = l ++ [x] /\ v6 (snd x) = pref sc
  else log s = [] /\
       (((forall b, In b (queue s) -> v6 b <> pref sc) /\
         timer s = match queue s with [] => None | _ :: _ => Some (t0 + RD) end)
        \/ ((exists b, In b (queue s) /\ v6 b = pref sc) /\ timer s = None)).

Lemma FInv_init : FInv (init sc).
Proof. split; [reflexivity|]. left. split; [intros b []|reflexivity]. Qed.

Lemma FInv_top s : InvS sc s -> FInv s -> FInv (top s).
Proof.
  intros J F. destruct (top_cases s) as [_|a q T Pq Pw]; [assumption|]. unfold FInv in *. cbn.
  destruct (started s).
  - destruct F as (l & x & -> & V). exists ((now s, a) :: l), x. split; [reflexivity|exact V].
  - destruct F as (L & [(_ & Tq)|((b & Hb & Vb) & _)]).
    + (* the queue is not empty, so the timer would be set *)
      destruct (queue s); [apply Permutation_nil in Pq|]; congruence.
    + exists [], (now s, a). rewrite L. split; [reflexivity|]. cbn.
      pose proof (S_want _ _ J) as W. rewrite L in W. rewrite <- W. apply Pw.
      exists b. rewrite W. split; assumption.
Qed.

Lemma witness_in_rest s : Inv sc s -> log s = [] ->
  (forall b, In b (queue s) -> v6 b <> pref sc) -> exists it, In (t1, it) (rest s).
Proof.
  intros [(pre & Hs & Hp) _ _ _ _] L Hq. rewrite L in Hp. cbn in Hp.
  pose proof Hin1 as H. rewrite Hs, stream_addrs_app in H. apply in_app_or in H as [H|H].
  - exfalso. apply (in_map snd), (Permutation_in _ Hp) in H. exact (Hq _ H Hpref1).
  - apply stream_addrs_in in H. exact H.
Qed.

Lemma FInv_event s s' : Inv sc s -> InvS sc s -> FInv s -> topped s -> event sc s s' -> FInv s'.
Proof.
  intros I J F TP E. unfold FInv in *. destruct (started s) eqn:St.
  { apply event_frame in E as (_ & -> & -> & _). now rewrite St. }
  destruct F as (L & [(Hq & Tq)|((b & Hb & _) & Tn)]).
  2:{ now rewrite (TP Tn) in Hb. }
  destruct (witness_in_rest s I L Hq) as [it Hit].
  destruct (rest_stime sc s _ Hso I Hit) as [Fi Hst]. cbn [fst] in Hst.
  destruct E as [d r c PM _ _|F Rs _|t2 a r F Rs Rd|t2 c r F Rs Rd|dl T Rd Hs1]; cbn; rewrite ?St.
  - (* nothing is in flight *)
    apply pick_min_in, (I_dlog _ _ I) in PM. now rewrite L in PM.
  - now rewrite Rs in Hit.
  - split; [assumption|]. destruct (Bool.eqb (pref sc) (v6 a)) eqn:E.
    + right. split; [|reflexivity]. exists a. split; [apply in_or_app; right; now left|].
      symmetry. now apply eqb_prop.
    + left. split.
      { intros b Hb. apply in_app_or in Hb as [Hb|[<-|[]]]; [auto|].
        intros V. rewrite V, eqb_reflx in E. discriminate. }
      rewrite Tq. destruct (queue s) eqn:Q; [cbn|reflexivity].
      (* this is the first address of the stream, delivered when it resolves *)
      destruct I as [(pre & Hs & Hp) _ _ _ _]. rewrite L, Q in Hp.
      apply Permutation_sym, Permutation_nil, map_eq_nil in Hp.
      pose proof Hads as HA. rewrite Hs, stream_addrs_app, Hp, Rs in HA. injection HA as -> -> _.
      pose proof (S_fut _ _ J (t0, IAddr a0)) as Hn. rewrite Rs in Hn.
      specialize (Hn (or_introl eq_refl)). cbn in Hn. f_equal. lia.
  - split; [assumption|]. left. auto.
  - (* the resolution-delay timer cannot fire before the witness is delivered *)
    exfalso. rewrite Tq in T. destruct (queue s); [discriminate|]. injection T as <-.
    specialize (Hs1 Fi). lia.
Qed.

(* a sleep keeps FInv, which does not mention the clock *)
Lemma FInv_reach s : reach sc s -> FInv s.
Proof.
  induction 1 as [|s R F|s t R F W|s s' R F T E]; [apply FInv_init| |exact F|].
  - exact (FInv_top s (invS_reach _ _ Hso R) F).
  - exact (FInv_event s s' (inv_reach _ _ R) (invS_reach _ _ Hso R) F T E).
Qed.

Lemma first_attempt_preferred_sec r s l x :
  run_sc sc = (r, s) -> log s = l ++ [x] -> v6 (snd x) = pref sc.
Proof.
  intros H HL. apply run_sc_cases in H as (u & R & L & _). apply FInv_reach in R as F.
  rewrite L in HL. unfold FInv in F. destruct (started u).
  - destruct F as (l' & x' & L' & V). rewrite L' in HL. now apply app_inj_tail in HL as [_ <-].
  - destruct F as [L0 _]. rewrite L0 in HL. now destruct l.
Qed.
End First.

Lemma outcome_eqb_eq x y : outcome_eqb x y = true -> x = y.
Proof.
  destruct x, y; cbn; try discriminate; intros H; try apply N.eqb_eq in H; congruence.
Qed.
Lemma addr_eqb_eq a b : addr_eqb a b = true -> a = b.
Proof.
  unfold addr_eqb. intros H. apply andb_prop in H as [H H3]. apply andb_prop in H as [H1 H2].
  apply eqb_prop in H1. apply N.eqb_eq in H2. apply outcome_eqb_eq in H3.
  destruct a, b; cbn in *; congruence.
Qed.

Lemma addr_eqb_refl a : addr_eqb a a = true.
Proof.
  unfold addr_eqb. rewrite eqb_reflx, N.eqb_refl. cbn.
  destruct (oc a); cbn; auto using N.eqb_refl.
Qed.

Lemma addr_eqb_iff a b : addr_eqb a b = true <-> a = b.
Proof. split; [apply addr_eqb_eq|intros <-; apply addr_eqb_refl]. Qed.

Definition result_spec (ads lg : list (N * addr)) (te : N) (r : res addr) (e : N) : Prop :=
  match r with
  | Ok a => (exists t, In (t, a) lg /\ succ a = true /\ dend_at t a = e) /\
            (forall t' a', In (t', a') lg -> succ a' = true -> e <= dend_at t' a')
  | Err _ => (forall x, In x ads -> exists t, In (t, snd x) lg) /\ length lg = length ads /\
             (forall t a, In (t, a) lg -> succ a = false /\ dend_at t a <= e) /\ te <= e
  | Panic => False
  end.

Lemma result_ok_spec ads lg te r e : result_ok ads lg te r e = true <-> result_spec ads lg te r e.
Proof.
  destruct r as [a|c|]; cbn [result_ok result_spec]; [| |exact false_iff].
  - eapply iff_trans.
    { apply andb_iff.
      - apply existsb_iff; intros x. apply andb_assoc_iff.
        apply andb_iff; [apply addr_eqb_iff|]. apply andb_iff; [apply iff_refl|apply N.eqb_eq].
      - apply forallb_iff; intros x. apply nimpb_iff; [apply iff_refl|apply N.leb_le]. }
    (* result_spec names the two components of a logged attempt *)
    split; intros [E F]; split.
    + destruct E as ([t b] & Hin & <- & S & D). eauto.
    + intros t' a' Hi. exact (F (t', a') Hi).
    + destruct E as (t & Hin & S & D). exists (t, a). auto.
    + intros [t' a']. apply F.
  - eapply iff_trans.
    { repeat apply andb_assoc_iff.
      apply andb_iff; [apply forallb_iff; intros x; apply existsb_iff; intros y; apply addr_eqb_iff|].
      apply andb_iff; [apply Nat.eqb_eq|]. apply andb_iff; [|apply N.leb_le].
      apply forallb_iff; intros x. apply andb_iff; [apply negb_true_iff|apply N.leb_le]. }
    split; intros (A & L & F & T); (split; [|split; [exact L|split; [|exact T]]]).
    + intros x Hx. destruct (A x Hx) as ([t b] & Hi & ->). eauto.
    + intros t a Hi. exact (F (t, a) Hi).
    + intros x Hx. destruct (A x Hx) as (t & Hi). exists (t, snd x). auto.
    + intros [t a]. apply F.
Qed.

Lemma monitor_result_spec i lg r e : monitor i (lg, r, e) = true ->
  result_spec (stream_addrs (items (sc_of i))) lg (tend (sc_of i)) r e.
Proof.
  unfold monitor. intros H. apply andb_prop in H as [H _]. apply andb_prop in H as [H _].
  now apply result_ok_spec.
Qed.

Lemma result_ok_model sc r s : run_sc sc = (r, s) ->
  result_ok (stream_addrs (items sc)) (rev (log s)) (tend sc) r (now s) = true.
Proof.
  intros H. apply result_ok_spec. destruct r as [a|c|]; cbn.
  - apply returns_first_success in H as (t & Hin & Sa & De & Mn).
    split; [exists t; split; [apply -> in_rev; exact Hin|split; assumption]|]. intros t' a' Hi. apply in_rev in Hi. eauto.
  - pose proof (all_attempted_or_won _ _ _ H) as P.
    apply fails_only_when_exhausted in H as (_ & _ & Te & _ & _ & Hl).
    split; [|split; [|split; [|assumption]]].
    + intros x Hx. apply (in_map snd), (Permutation_in _ P), in_map_iff in Hx as ([t b] & E & Hy).
      exists t. cbn in E. rewrite <- E. now apply -> in_rev.
    + apply Permutation_length in P. unfold addrs_of in P. rewrite !map_length in P.
      now rewrite rev_length.
    + intros t a Hi. apply in_rev in Hi. auto.
  - exact (run_sc_not_panic _ _ H).
Qed.

Lemma first_ok_model sc r s : sorted (items sc) -> run_sc sc = (r, s) ->
  first_ok (pref sc) (stream_addrs (items sc)) (rev (log s)) = true.
Proof.
  intros So H. unfold first_ok.
  destruct (stream_addrs (items sc)) as [|[t0 a0] tl] eqn:A; [reflexivity|].
  destruct (existsb _ _) eqn:E; [|reflexivity].
  apply existsb_exists in E as ([t1 a1] & Hin & C). cbn in C. apply andb_prop in C as [C1 C2].
  apply eqb_prop in C1. apply N.leb_le in C2.
  destruct (rev (log s)) as [|[t a] l] eqn:R; [reflexivity|].
  apply (f_equal (@rev _)) in R. rewrite rev_involutive in R. cbn in R.
  rewrite <- A in Hin.
  rewrite <- (first_attempt_preferred_sec sc t0 a0 tl So A t1 a1 Hin C1 C2 r s _ _ H R).
  apply eqb_reflx.
Qed.

Lemma model_monitor i : monitor i (model i) = true.
Proof.
  unfold monitor, model, out_of. destruct (run_sc (sc_of i)) as [r s] eqn:H. cbn [fst snd].
  pose proof (sc_of_sorted i) as So.
  rewrite (result_ok_model _ _ _ H), (first_ok_model _ _ _ So H), rev_involutive.
  exact (alternates_while_both _ _ _ So H).
Qed.

(* The flag flip of the unfixed pop_family (`*next_is_v6 = !*next_is_v6`) repeats a family
   after a fall-back although the other family is queued. *)
Definition pop_family_old (q : list addr) (w : bool) : option (addr * list addr * bool) :=
  match q with
  | [] => None
  | a0 :: q0 =>
      match find_fam w q with
      | Some (a, r) => Some (a, r, negb w)
      | None => Some (a0, q0, negb w)
      end
  end.

Example pop_family_old_repeats_family :
  let a := mkAddr true 101 OHang in let b := mkAddr true 102 OHang in let c := mkAddr false 1 OHang in
  pop_family_old [a; b] false = Some (a, [b], true) /\
  pop_family_old [b; c] true = Some (b, [c], false) /\
  pop_family [a; b] false = Some (a, [b], false) /\
  pop_family [b; c] false = Some (c, [b], true).
Proof. repeat split. Qed.

(* the corpus witness `0 100:h 0:h,h` on the fixed model: v6, v4, v6 *)
Example witness_alternates :
  model (mkIn false (lk 100 (Some [mkAddr false 1 OHang]))
                    (lk 0 (Some [mkAddr true 101 OHang; mkAddr true 102 OHang])))
  = ([(RD, mkAddr true 101 OHang); (RD + CAD, mkAddr false 1 OHang);
      (RD + 2 * CAD, mkAddr true 102 OHang)], Err 3, RD + 2 * CAD + DT).
Proof. vm_compute. reflexivity. Qed.

(* the bound 3 * #items + 3 is attained; 2 * #items + 3, the fuel planned in DESIGN.md section 7,
   is not enough *)
Definition sc_slow : scenario := mkSc false [(0, IAddr (mkAddr true 101 OHang))] (10000 * MS).

Example fuel_tight : run (3 * 1 + 2) sc_slow (init sc_slow) = None /\
                     exists s, run (3 * 1 + 3) sc_slow (init sc_slow) = Some (Err 3, s).
Proof. split; [vm_compute; reflexivity|]. eexists. vm_compute. reflexivity. Qed.

Lemma fuel_2n_plus_3_refuted :
  exists sc, run (2 * length (items sc) + 3) sc (init sc) = None.
Proof. exists sc_slow. vm_compute. reflexivity. Qed.

(* the hypotheses of first_attempt_preferred_sec are satisfiable, at the boundary t1 = t0 + RD *)
Example first_pref_nonvacuous :
  let sc := mkSc true [(0, IAddr (mkAddr false 1 OHang)); (RD, IAddr (mkAddr true 101 (ok 1)))] RD in
  sorted (items sc) /\ fst (run_sc sc) = Ok (mkAddr true 101 (ok 1)) /\
  rev (log (snd (run_sc sc))) = [(RD, mkAddr true 101 (ok 1))].
Proof.
  split.
  - cbn. repeat split; intros y Hy; repeat (destruct Hy as [<-|Hy]; [cbn; lia|]); destruct Hy.
  - split; vm_compute; reflexivity.
Qed.
