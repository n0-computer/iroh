(* C13 — the captive-portal challenge.  The handler tests character ranges, the monitor lists
   the alphabet: that the two agree (allowed_alphabet_all) is decided over the 256 byte values,
   and makes the monitor's well_formed the handler's check (well_formed_check).  Monitor and
   model are then read through check_spec and handler_spec. *)
From V Require Import Lib.Base Lib.Lists Model.C13.
From V Require Import Lib.LiaBool.
Import C13.
Open Scope N_scope.

Definition allowedP (b : N) : Prop :=
  (97 <= b <= 122) \/ (65 <= b <= 90) \/ (48 <= b <= 57) \/ b = 46 \/ b = 45 \/ b = 95.

Lemma allowed_spec b : allowed b = true <-> allowedP b.
Proof. unfold allowed, allowedP, is_lower, is_upper, is_digit. lia. Qed.

Definition all_bytes : list N := map N.of_nat (seq 0 256).

Lemma in_all_bytes b : b < 256 -> In b all_bytes.
Proof.
  intros H. unfold all_bytes. apply in_map_iff. exists (N.to_nat b). split; [lia|].
  apply in_seq. lia.
Qed.

Lemma allowed_table :
  forallb (fun b => implb (allowed b) (existsb (N.eqb b) ALPHABET)) all_bytes = true.
Proof. vm_compute. reflexivity. Qed.

Lemma alphabet_allowed : forallb allowed ALPHABET = true.
Proof. reflexivity. Qed.

Lemma allowed_alphabet_all b : allowed b = true <-> In b ALPHABET.
Proof.
  split; [|apply (proj1 (forallb_forall _ _) alphabet_allowed)].
  intros H. pose proof allowed_table as T. rewrite forallb_forall in T.
  assert (Hb : b < 256) by (apply allowed_spec in H; unfold allowedP in H; lia).
  specialize (T b (in_all_bytes b Hb)). rewrite H in T. now apply existsb_eqb_in.
Qed.

Lemma allowed_alphabet b : b < 256 -> (allowed b = true <-> In b ALPHABET).
Proof. intros _. apply allowed_alphabet_all. Qed.

Lemma length_window c : negb (is_nil c) && (len c <? 64) = (1 <=? len c) && (len c <=? 63).
Proof. destruct c; rewrite ?len_cons, ?len_nil; cbn [is_nil negb]; lia. Qed.

Lemma check_spec c : check c = true <-> (1 <= len c /\ len c <= 63) /\ Forall allowedP c.
Proof.
  unfold check. rewrite length_window.
  apply andb_iff; [|apply forallb_Forall_iff, allowed_spec].
  apply andb_iff; apply N.leb_le.
Qed.

Lemma well_formed_check c : well_formed c = check c.
Proof.
  unfold well_formed, check. rewrite length_window. f_equal.
  apply forallb_ext. intros b. apply Bool.eq_true_iff_eq.
  rewrite existsb_eqb_in. symmetry. apply allowed_alphabet_all.
Qed.

(* allowed characters are visible ASCII: `challenge.to_str()?` cannot fail after check *)
Lemma check_visible c : check c = true -> forallb visible c = true.
Proof.
  intros H. apply check_spec in H as [_ H]. apply forallb_forall. intros b Hb.
  rewrite Forall_forall in H. specialize (H b Hb). unfold allowedP in H. unfold visible. lia.
Qed.

Lemma handler_spec vals :
  handler vals =
  Ok (204, match vals with
           | c :: _ => if check c then Some (RESPONSE_PREFIX ++ c) else None
           | [] => None
           end).
Proof.
  destruct vals as [|c r]; cbn [handler]; [reflexivity|].
  destruct (check c) eqn:E; [|reflexivity]. now rewrite (check_visible c E).
Qed.

Lemma handler_never_errs vals : exists r, handler vals = Ok r.
Proof. rewrite handler_spec. eauto. Qed.

(* the property of Model/C13.v's monitor as a proposition; the condition on the challenge is
   check_spec's, where the monitor has well_formed *)
Definition spec (i : input) (o : output) : Prop :=
  fst o = 204 /\
  match map trim i with
  | c :: _ =>
      ((1 <= len c /\ len c <= 63) /\ Forall allowedP c -> snd o = Some (RESPONSE_PREFIX ++ c)) /\
      (~ ((1 <= len c /\ len c <= 63) /\ Forall allowedP c) -> snd o = None)
  | [] => snd o = None
  end.

Lemma monitor_spec (i : input) (o : output) :
  wire_ok i = true -> (monitor i o = true <-> spec i o).
Proof.
  intros Hw. unfold monitor, spec. rewrite Hw. cbn [negb].
  apply andb_iff; [apply N.eqb_eq|]. destruct (map trim i) as [|c r].
  - destruct (snd o); intuition discriminate.
  - rewrite well_formed_check, <- check_spec. destruct (check c).
    + rewrite (opt_eqb_iff _ bytes_eqb_iff). intuition congruence.
    + destruct (snd o); intuition (discriminate || congruence).
Qed.

Lemma model_monitor (i : input) : monitor i (model i) = true.
Proof.
  unfold monitor, model, serve. destruct (wire_ok i) eqn:Hw; [|reflexivity]. cbn [negb].
  rewrite handler_spec. cbn [fst snd]. rewrite N.eqb_refl. cbn [andb].
  destruct (map trim i) as [|c r]; [reflexivity|].
  rewrite well_formed_check. destruct (check c); [apply bytes_eqb_refl|reflexivity].
Qed.

Lemma model_spec (i : input) : wire_ok i = true -> spec i (model i).
Proof. intros Hw. apply monitor_spec; [assumption|apply model_monitor]. Qed.

Example ex_63 : check (repeat 97 63) = true. Proof. vm_compute. reflexivity. Qed.
Example ex_64 : check (repeat 97 64) = false. Proof. vm_compute. reflexivity. Qed.
Example ex_1 : check [95] = true. Proof. vm_compute. reflexivity. Qed.
Example ex_0 : check [] = false. Proof. vm_compute. reflexivity. Qed.
Example ex_edges : map allowed [47; 48; 57; 58; 64; 65; 90; 91; 96; 97; 122; 123; 44; 45; 46; 94; 95; 128; 255]
  = [false; true; true; false; false; true; true; false; false; true; true; false; false; true; true; false; true; false; false].
Proof. vm_compute. reflexivity. Qed.
Example ex_trim : model [[32; 9; 97; 98; 32]; [99]] = (204, Some (str_bytes "response ab")).
Proof. vm_compute. reflexivity. Qed.
Example ex_inner_space : model [[97; 32; 98]] = (204, None).
Proof. vm_compute. reflexivity. Qed.
Example ex_only_space : model [[32]] = (204, None).
Proof. vm_compute. reflexivity. Qed.
