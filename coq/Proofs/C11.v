(* C11 — version negotiation (Model/C11.v).  The lemmas about the version table are generic in
   the table, with the side condition [table_ok] closed by computation: a new version in the
   source changes only [versions]. *)
From V Require Import Lib.Base Lib.Lists Model.C11.
Import C11.
Open Scope N_scope.

Lemma fold_max_spec l : forall x,
  In (fold_left N.max l x) (x :: l) /\ forall w, In w (x :: l) -> w <= fold_left N.max l x.
Proof.
  induction l as [|a l IH]; intros x; cbn [fold_left].
  - split; [now left|]. intros w [<-|[]]. lia.
  - destruct (IH (N.max x a)) as [Hin Hub]. split.
    + destruct Hin as [E|Hin]; [|right; now right]. rewrite <- E.
      destruct (N.max_spec x a) as [[_ ->]|[_ ->]]; [right|]; now left.
    + pose proof (Hub _ (or_introl eq_refl)). intros w [<-|[<-|Hw]]; [lia|lia|]. apply Hub. now right.
Qed.

Lemma max_list_spec l v :
  max_list l = Some v <-> In v l /\ forall w, In w l -> w <= v.
Proof.
  destruct l as [|x r]; cbn [max_list].
  - split; [discriminate|]. intros [[] _].
  - destruct (fold_max_spec r x) as [Hin Hub]. split.
    + intros [= <-]. auto.
    + intros [Hin' Hub']. f_equal. apply N.le_antisymm; auto.
Qed.

Lemma max_list_none l : max_list l = None <-> l = [].
Proof. destruct l; cbn; split; congruence. Qed.

Lemma in_filter_map {A B} (f : A -> option B) l b :
  In b (filter_map f l) <-> exists a, In a l /\ f a = Some b.
Proof.
  induction l as [|a l IH]; cbn [filter_map In].
  - split; [tauto|]. intros (a & [] & _).
  - destruct (f a) as [b'|] eqn:E; cbn [In]; rewrite IH; split.
    + intros [<-|(a' & H1 & H2)]; [exists a; auto|exists a'; auto].
    + intros (a' & [<-|H1] & H2); [left; congruence|right; eauto].
    + intros (a' & H1 & H2). exists a'; auto.
    + intros (a' & [<-|H1] & H2); [congruence|eauto].
Qed.

(* the model's [version_str] and [match_from_str] with the table as a parameter: at [versions]
   they are the model's by conversion, no lemma says so *)
Definition lookup_str (t : list (N * bytes)) (v : N) : option bytes :=
  option_map snd (find (fun p => fst p =? v) t).
Definition lookup_ver (t : list (N * bytes)) (s : bytes) : option N :=
  option_map fst (find (fun p => bytes_eqb (snd p) s) t).

(* [to_str_ok s]: [client] tests an answer for text before it looks it up, so an identifier that
   is not text would never be accepted *)
Fixpoint table_ok (t : list (N * bytes)) : bool :=
  match t with
  | [] => true
  | (v, s) :: r =>
      negb (existsb (fun p => fst p =? v) r) && negb (existsb (fun p => bytes_eqb (snd p) s) r) &&
      to_str_ok s && table_ok r
  end.

Lemma versions_ok : table_ok versions = true.
Proof. vm_compute. reflexivity. Qed.

Lemma bytes_eqb_true_iff a b : bytes_eqb a b = true <-> a = b.
Proof. apply bytes_eqb_iff. Qed.

Lemma not_existsb {A} (f : A -> bool) l x : negb (existsb f l) = true -> In x l -> f x = false.
Proof.
  intros H Hin. destruct (f x) eqn:E; [|reflexivity].
  rewrite (proj2 (existsb_exists f l)) in H by eauto. discriminate.
Qed.

Lemma table_ok_entry t v s : table_ok t = true -> In (v, s) t ->
  lookup_ver t s = Some v /\ lookup_str t v = Some s /\ to_str_ok s = true.
Proof.
  induction t as [|[v' s'] r IH]; cbn [table_ok In]; [tauto|].
  intros Hok Hin. apply andb_prop in Hok as [Hok Hr]. apply andb_prop in Hok as [Hok Ht].
  apply andb_prop in Hok as [Hv Hs]. unfold lookup_ver, lookup_str. cbn [find fst snd].
  destruct Hin as [[= -> ->]|Hin]; [rewrite bytes_eqb_refl, N.eqb_refl; auto|].
  apply (not_existsb _ _ _ Hv) in Hin as Nv. apply (not_existsb _ _ _ Hs) in Hin as Ns. cbn [fst snd] in Nv, Ns.
  destruct (bytes_eqb s' s) eqn:E; [apply bytes_eqb_eq in E as ->; rewrite bytes_eqb_refl in Ns; discriminate Ns|].
  rewrite N.eqb_sym, Nv. now apply IH.
Qed.

Lemma table_ok_lookup t v s : table_ok t = true ->
  (lookup_ver t s = Some v <-> In (v, s) t) /\ (lookup_str t v = Some s <-> In (v, s) t).
Proof.
  intros Hok. split; (split; [|now apply table_ok_entry]).
  - unfold lookup_ver. destruct (find _ t) as [[v' s']|] eqn:E; [|discriminate]. cbn. intros [= <-].
    apply find_some in E as [Hin Heq]. apply bytes_eqb_eq in Heq as <-. exact Hin.
  - unfold lookup_str. destruct (find _ t) as [[v' s']|] eqn:E; [|discriminate]. cbn. intros [= <-].
    apply find_some in E as [Hin Heq]. apply N.eqb_eq in Heq as <-. exact Hin.
Qed.

Lemma match_from_str_in s v : match_from_str s = Some v <-> In (v, s) versions.
Proof. exact (proj1 (table_ok_lookup versions v s versions_ok)). Qed.

Lemma version_str_in s v : version_str v = Some s <-> In (v, s) versions.
Proof. exact (proj2 (table_ok_lookup versions v s versions_ok)). Qed.

Lemma match_from_str_version_str s v : match_from_str s = Some v <-> version_str v = Some s.
Proof. now rewrite match_from_str_in, version_str_in. Qed.

Lemma versions_text v s : In (v, s) versions -> to_str_ok s = true.
Proof. apply table_ok_entry, versions_ok. Qed.

Lemma offered_spec h v :
  In v (offered h) <-> exists tok, In tok (split_comma h) /\ match_from_str (trim tok) = Some v.
Proof.
  unfold offered. rewrite in_filter_map. split.
  - intros (a & Ha & Hm). apply in_map_iff in Ha as (tok & <- & Hin). eauto.
  - intros (tok & Hin & Hm). exists (trim tok). split; [now apply in_map|exact Hm].
Qed.

Lemma pick_spec h v :
  server_pick h = Ok v <->
  to_str_ok h = true /\ In v (offered h) /\ forall w, In w (offered h) -> w <= v.
Proof.
  unfold server_pick. rewrite <- max_list_spec.
  destruct (to_str_ok h); cbn [negb]; [|split; [discriminate|intros [[=] _]]].
  destruct (max_list (offered h)) as [m|]; split.
  - intros [= ->]. auto.
  - intros [_ [= ->]]. reflexivity.
  - discriminate.
  - intros [_ [=]].
Qed.

Lemma pick_none_iff h :
  server_pick h = Err E_UNSUPPORTED <-> to_str_ok h = true /\ offered h = [].
Proof.
  unfold server_pick. rewrite <- max_list_none.
  destruct (to_str_ok h); cbn [negb]; [|split; [discriminate|intros [[=] _]]].
  destruct (max_list (offered h)) as [m|]; split; [discriminate|intros [_ [=]]|auto|reflexivity].
Qed.

Lemma pick_total h : server_pick h <> Panic.
Proof. unfold server_pick. destruct (negb _); [discriminate|]. destruct (max_list _); discriminate. Qed.

Lemma pick_err h e : to_str_ok h = true -> server_pick h = Err e -> offered h = [].
Proof.
  intros Ht E. apply max_list_none. destruct (max_list (offered h)) as [m|] eqn:M; [|reflexivity].
  apply max_list_spec in M. rewrite (proj2 (pick_spec h m) (conj Ht M)) in E. discriminate.
Qed.

Lemma upgrade_iff h :
  to_str_ok h = true ->
  ((exists v, server [h] = Ok v) <-> exists tok v, In tok (split_comma h) /\ match_from_str (trim tok) = Some v).
Proof.
  intros Ht. cbn [server]. split.
  - intros (v & H). apply pick_spec in H as (_ & Hin & _). apply offered_spec in Hin as (tok & ? & ?). eauto.
  - intros (tok & v & Hin & Hm).
    assert (Ho : In v (offered h)) by (apply offered_spec; eauto).
    destruct (server_pick h) as [m|e|] eqn:E; [eauto| |now apply pick_total in E].
    apply pick_err in E; [|exact Ht]. rewrite E in Ho. destruct Ho.
Qed.

Lemma client_spec st a v :
  client st a = Ok v <-> st = 101 /\ exists s, a = Some s /\ In (v, s) versions.
Proof.
  unfold client. split.
  - destruct (N.eqb_spec st 101); cbn [negb]; [|discriminate]. destruct a as [s|]; [|discriminate].
    destruct (to_str_ok s); cbn [negb]; [|discriminate].
    destruct (match_from_str s) as [w|] eqn:E; [|discriminate]. intros [= <-].
    apply match_from_str_in in E. eauto.
  - intros (-> & s & -> & Hin). rewrite N.eqb_refl, (versions_text _ _ Hin). cbn [negb].
    apply match_from_str_in in Hin. now rewrite Hin.
Qed.

Lemma negotiation_agrees lines v :
  server lines = Ok v ->
  exists s, server_answer lines = Ok s /\ client 101 (Some s) = Ok v.
Proof.
  intros H. unfold server_answer. rewrite H.
  assert (Hin : exists s, In (v, s) versions).
  { destruct lines as [|h r]; [discriminate|]. cbn [server] in H.
    apply pick_spec in H as (_ & Hin & _). apply offered_spec in Hin as (tok & _ & Hm).
    apply match_from_str_in in Hm. eauto. }
  destruct Hin as (s & Hin). rewrite (proj2 (version_str_in s v) Hin).
  exists s. split; [reflexivity|]. apply client_spec. eauto.
Qed.

Lemma server_answer_total lines : server_answer lines <> Panic.
Proof.
  destruct (server lines) as [v|e|] eqn:E.
  - destruct (negotiation_agrees lines v E) as (s & -> & _). discriminate.
  - unfold server_answer. rewrite E. discriminate.
  - destruct lines as [|h r]; [discriminate|]. now apply pick_total in E.
Qed.

(* the three conjuncts of the monitor's verdict on an upgrade *)
Lemma best_offer_iff (l : list N) v (r : res N) :
  existsb (N.eqb v) l && forallb (fun w => w <=? v) l && res_eqb N.eqb r (Ok v) = true <->
  In v l /\ (forall w, In w l -> w <= v) /\ r = Ok v.
Proof.
  apply andb_assoc_iff. apply andb_iff; [apply existsb_eqb_in|].
  apply andb_iff; [apply forallb_iff; intros w; apply N.leb_le|].
  apply res_eqb_iff, N.eqb_eq.
Qed.

Lemma monitor_server_spec h r :
  to_str_ok h = true ->
  (monitor (IServer [h]) (OServer r) = true <->
   (exists a v, r = Ok a /\ In (v, a) versions /\ In v (offered h) /\
                (forall w, In w (offered h) -> w <= v) /\ client 101 (Some a) = Ok v)
   \/ ((exists e, r = Err e) /\ offered h = [])).
Proof.
  intros Ht. cbn [monitor]. rewrite Ht. cbn [negb]. destruct r as [a|e|].
  - etransitivity; [apply some_ex_iff; intros v; apply best_offer_iff|]. split.
    + intros (v & E%match_from_str_in & H). left. exists a, v. auto.
    + intros [(a' & v & [= <-] & Hin%match_from_str_in & H)|[(e & [=]) _]]. eauto.
  - etransitivity; [apply nil_iff|]. split.
    + intros H. right. eauto.
    + intros [(a & v & [=] & _)|[_ H]]. exact H.
  - split; [discriminate|]. intros [(a & v & [=] & _)|[(e & [=]) _]].
Qed.

Lemma model_monitor i : monitor i (model i) = true.
Proof.
  destruct i as [[|h [|h2 r]]|s|st a|]; cbn [model].
  - reflexivity.
  - destruct (to_str_ok h) eqn:Ht; [|cbn [monitor]; now rewrite Ht].
    apply (monitor_server_spec h _ Ht). destruct (server [h]) as [v|e|] eqn:E.
    + destruct (negotiation_agrees [h] v E) as (s & Hs & Hc). left. exists s, v.
      pose proof Hc as (_ & s' & [= <-] & Hin)%client_spec. apply pick_spec in E as (_ & Ho & Hub). auto.
    + right. unfold server_answer. rewrite E. split; [eauto|]. exact (pick_err h e Ht E).
    + now apply pick_total in E.
  - pose proof (server_answer_total (h :: h2 :: r)). cbn [monitor]. destruct (server_answer _); cbn; congruence.
  - cbn [monitor]. destruct (match_from_str s) as [v|] eqn:E.
    + apply match_from_str_version_str in E. rewrite E. cbn. apply bytes_eqb_refl.
    + apply negb_true_iff. destruct (existsb _ versions) eqn:Ex; [|reflexivity].
      apply existsb_exists in Ex as ([v s'] & Hin & Heq). cbn in Heq. apply bytes_eqb_eq in Heq. subst s'.
      apply match_from_str_in in Hin. congruence.
  - (* of an accepted answer the monitor asks what the client tested *)
    cbn [monitor]. unfold client. destruct (st =? 101); [|reflexivity].
    destruct a as [s|]; [|reflexivity]. destruct (to_str_ok s); [|reflexivity].
    now destruct (match_from_str s).
  - cbn [monitor]. apply list_eqb_refl. intros [v s]. unfold pair_eqb. cbn. now rewrite N.eqb_refl, bytes_eqb_refl.
Qed.

Example negotiation_examples :
  server_answer [str_bytes "iroh-relay-v2,iroh-relay-v1"] = Ok (str_bytes "iroh-relay-v2") /\
  server_answer [str_bytes "baz, iroh-relay-v1, iroh-relay-v2, boo"] = Ok (str_bytes "iroh-relay-v2") /\
  server_answer [str_bytes " iroh-relay-v1	"] = Ok (str_bytes "iroh-relay-v1") /\
  server_answer [str_bytes "iroh-relay-v1,iroh-relay-v1"] = Ok (str_bytes "iroh-relay-v1") /\
  server_answer [str_bytes "IROH-RELAY-V2"] = Err E_UNSUPPORTED /\
  server_answer [str_bytes "iroh-relay-v1 iroh-relay-v2"] = Err E_UNSUPPORTED /\
  server_answer [str_bytes ""] = Err E_UNSUPPORTED /\
  server_answer [] = Err E_MISSING /\
  server_answer [[105; 233]] = Err E_NOT_ASCII /\
  (* only the first header line is looked at *)
  server_answer [str_bytes "iroh-relay-v1"; str_bytes "iroh-relay-v2"] = Ok (str_bytes "iroh-relay-v1") /\
  server_answer [str_bytes "foo"; str_bytes "iroh-relay-v2"] = Err E_UNSUPPORTED /\
  client 101 (Some (str_bytes "iroh-relay-v2")) = Ok 2 /\
  client 101 (Some (str_bytes " iroh-relay-v2")) = Err E_BAD_VERSION /\
  client 101 (Some (str_bytes "iroh-relay-v2, iroh-relay-v1")) = Err E_BAD_VERSION /\
  client 101 None = Err E_BAD_VERSION /\
  client 200 (Some (str_bytes "iroh-relay-v2")) = Err E_STATUS.
Proof. vm_compute. repeat split. Qed.
