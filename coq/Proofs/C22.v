(* C22 — the resolve machinery.  One step is specified by [StepSpec] over the invariant [Inv];
   apart from the end of a running lookup every step either answers nobody ([StepSpec_quiet]: a
   request that brings no address while no path is known waits) or makes paths known
   ([StepSpec_learn]: whoever waited is answered Ok, and so is a new request unless this very
   prune empties the set); which of the two, [insert_multiple_cases] tells.  Along a history with
   distinct request ids [run_spec] gives the invariant, the conservation of requests and the
   monitor in one induction; [Tally] states the conservation law between the monitor's state and
   the model's. *)
From Coq Require Import Permutation Sorted.
From V Require Import Lib.Base Lib.Lists Lib.Trace Lib.Sorting Gen.Consts Model.C23 Proofs.C23 Model.C22.
From V Require Import Lib.LiaBool.
(* C22 last: the names both models define ([known], [monitor], [model], [input], [tag], ..) are
   C22's; [prune], [path], [mem] are C23's *)
Import C23 C22.
Open Scope N_scope.

Lemma nonempty_true {A} (l : list A) : nonempty l = true <-> l <> [].
Proof. destruct l; cbn; split; congruence. Qed.
Lemma nonempty_false {A} (l : list A) : nonempty l = false <-> l = [].
Proof. destruct l; cbn; split; congruence. Qed.

Lemma nonempty_perm {A} (l l' : list A) : Permutation l l' -> nonempty l = nonempty l'.
Proof.
  intros P. apply Permutation_length in P. destruct l, l'; cbn in *; congruence.
Qed.

Lemma list_nil_dec {A} (l : list A) : l = [] \/ l <> [].
Proof. destruct l; [now left|right; discriminate]. Qed.

Lemma len_pos {A} (l : list A) : (0 <? len l) = nonempty l.
Proof. destruct l; [reflexivity|]. rewrite len_cons. cbn [nonempty]. lia. Qed.
Lemma len_zero {A} (l : list A) : (len l =? 0) = negb (nonempty l).
Proof. destruct l; [reflexivity|]. unfold len. cbn [length nonempty negb]. lia. Qed.

Lemma reorder_perm ord ps : Permutation (reorder ord ps) ps.
Proof.
  unfold reorder. rewrite sort_map_perm, map_map. cbn [snd]. now rewrite map_id.
Qed.

Lemma reorder_nil ord ps : reorder ord ps = [] <-> ps = [].
Proof. now rewrite <- !nonempty_false, (nonempty_perm _ _ (reorder_perm ord ps)). Qed.

Lemma has_In a ps : has a ps = true <-> In a (map pid ps).
Proof.
  unfold has. eapply iff_trans; [apply existsb_iff; intros p; apply N.eqb_eq|].
  rewrite in_map_iff. split; intros [p [H1 H2]]; exists p; auto.
Qed.

Lemma snoc_NoDup ps p :
  NoDup (map pid ps) -> has (pid p) ps = false -> NoDup (map pid (ps ++ [p])).
Proof.
  intros H E. rewrite map_app. apply NoDup_snoc; [exact H|]. rewrite <- has_In. congruence.
Qed.

Lemma add_unknown_NoDup ps a : NoDup (map pid ps) -> NoDup (map pid (add_unknown ps a)).
Proof.
  intros H. unfold add_unknown. destruct (has (fst a) ps) eqn:E; [exact H|now apply snoc_NoDup].
Qed.

Lemma add_unknown_nonempty ps a : add_unknown ps a <> [].
Proof. unfold add_unknown. destruct ps; [discriminate|]. destruct (has (fst a) (p :: ps)); discriminate. Qed.

Lemma add_unknown_keeps ps a : ps <> [] -> add_unknown ps a <> [].
Proof. intros _. apply add_unknown_nonempty. Qed.

Lemma fold_add_NoDup addrs ps :
  NoDup (map pid ps) -> NoDup (map pid (fold_left add_unknown addrs ps)).
Proof. apply (fold_left_inv add_unknown (fun ps => NoDup (map pid ps))), add_unknown_NoDup. Qed.

Lemma fold_add_empty ps : fold_left add_unknown [] ps = ps.
Proof. reflexivity. Qed.

Lemma fold_add_nil addrs ps : fold_left add_unknown addrs ps = [] -> ps = [] /\ addrs = [].
Proof.
  destruct addrs as [|a r]; cbn [fold_left]; [auto|]. intros E. exfalso. revert E.
  apply (fold_left_inv add_unknown (fun ps => ps <> [])); [|apply add_unknown_nonempty].
  intros ps' a' _. apply add_unknown_nonempty.
Qed.

Lemma set_open_NoDup a r ps : NoDup (map pid ps) -> NoDup (map pid (set_open a r ps)).
Proof.
  intros H. unfold set_open. destruct (has a ps) eqn:E; [|now apply snoc_NoDup].
  rewrite map_map. erewrite map_ext; [exact H|]. intros p. now destruct (pid p =? a).
Qed.

Lemma set_open_nonempty a r ps : set_open a r ps <> [].
Proof. unfold set_open. destruct ps; [discriminate|]. destruct (has a (p :: ps)); discriminate. Qed.

Lemma abandoned_pid now a ps : map pid (abandoned_path now a ps) = map pid ps.
Proof.
  unfold abandoned_path. rewrite map_map. apply map_ext. intros p. now destruct (pid p =? a).
Qed.

Lemma emit_nil err ps : emit err ps [] = ([], []).
Proof. reflexivity. Qed.

Lemma emit_eq err ps pend :
  emit err ps pend =
  (map (fun r => (r, if nonempty ps then 0 else match err with Some e => e | None => 2 end)) pend, []).
Proof. now destruct pend. Qed.

Lemma map_fst_tag {A B} (c : B) (l : list A) : map fst (map (fun r => (r, c)) l) = l.
Proof. rewrite map_map. apply map_id. Qed.

Record Inv (s : state) : Prop := mkInv {
  inv_nodup : NoDup (map pid (paths s));
  inv_pend : pending s <> [] -> paths s = [];
  inv_pend_nodup : NoDup (pending s);
  inv_sel : was_emptied s = false -> selected s <> None -> paths s <> [];
  inv_look : was_emptied s = false -> pending s <> [] -> lookup s = true }.

Lemma Inv_init : Inv init.
Proof. constructor; cbn; try congruence; constructor. Qed.

Definition new_req (e : event) : list N := match e with Resolve r _ => [r] | _ => [] end.

Record StepSpec (e : event) (s : state) (rs : list reply) (s1 : state) : Prop := mkSpec {
  sp_inv : Inv s1;
  (* every waiting or new request is either answered in this step or still waiting, never both *)
  sp_perm : Permutation (map fst rs ++ pending s1) (pending s ++ new_req e);
  (* answered Ok at once when a path is known or the request brings an address *)
  sp_imm : forall r a, e = Resolve r a -> was_emptied s1 = false -> (paths s <> [] \/ a <> []) -> In (r, 0) rs;
  (* Ok only when a path is known; failure only when a running lookup ends with no path known *)
  sp_codes : forall r, In r rs ->
     (snd r = 0 /\ (paths s <> [] \/ carries_addr e = true)) \/
     (snd r <> 0 /\ exists how, e = LookupEnd how /\ lookup s = true /\ paths s = [] /\ paths s1 = [] /\
                    snd r = (if how =? 0 then 2 else how));
  sp_end : forall how, e = LookupEnd how -> lookup s = true -> pending s1 = [];
  sp_mono : was_emptied s = true -> was_emptied s1 = true;
  sp_keep : was_emptied s1 = false -> paths s <> [] -> paths s1 <> [] }.

(* the state after `reorder`: the specification of a step does not see the difference *)
Definition reord (ord : list N) (s : state) : state :=
  mkSt (reorder ord (paths s)) (pending s) (lookup s) (selected s) (was_emptied s).

Lemma Inv_paths ps s :
  Inv s -> NoDup (map pid ps) -> (ps = [] <-> paths s = []) ->
  Inv (mkSt ps (pending s) (lookup s) (selected s) (was_emptied s)).
Proof.
  intros [H1 H2 H3 H4 H5] ND [N1 N2]. constructor; cbn [paths pending lookup selected was_emptied]; auto.
  intros W S E. exact (H4 W S (N1 E)).
Qed.

Lemma reord_Inv ord s : Inv s -> Inv (reord ord s).
Proof.
  intros I. apply Inv_paths; [exact I| |apply reorder_nil].
  eapply Permutation_NoDup; [|apply I]. apply Permutation_sym, Permutation_map, reorder_perm.
Qed.

Lemma StepSpec_reord ord e s rs s1 : StepSpec e (reord ord s) rs s1 -> StepSpec e s rs s1.
Proof.
  intros [S1 S2 S3 S4 S5 S6 S7]. cbn in *. destruct (reorder_nil ord (paths s)) as [N1 N2].
  assert (paths s <> [] -> reorder ord (paths s) <> []) as NE by (intros P Q; exact (P (N1 Q))).
  constructor; auto.
  - intros r a E W [P|A]; apply (S3 r a E W); auto.
  - intros r Hr. destruct (S4 r Hr) as [[C [P|P]]|[C [how [E [L [P Q]]]]]].
    + left. split; [exact C|]. left. intros Q. exact (P (N2 Q)).
    + left. auto.
    + right. split; [exact C|]. exists how. auto.
Qed.

(* nobody is answered; a request may wait only while no path is known and it brings none *)
Lemma StepSpec_quiet e s s1 :
  Inv s1 -> pending s ++ new_req e = pending s1 -> was_emptied s1 = was_emptied s ->
  (paths s <> [] -> paths s1 <> []) ->
  match e with
  | LookupEnd _ => lookup s = false
  | Resolve _ a => paths s = [] /\ a = []
  | _ => True
  end ->
  StepSpec e s [] s1.
Proof.
  intros I P W K M. constructor; auto.
  - now rewrite P.
  - intros r a -> _ H. tauto.
  - intros r [].
  - intros how -> T. rewrite M in T. discriminate.
  - congruence.
Qed.

(* paths become known: whoever is answered is answered Ok, and whoever still waits does so
   because this very prune emptied the set *)
Lemma StepSpec_learn e ps ans s s1 :
  NoDup (map pid ps) -> (paths s <> [] \/ carries_addr e = true) ->
  (forall how, e <> LookupEnd how) ->
  paths s1 = prune ps -> was_emptied s1 = was_emptied s || negb (nonempty (prune ps)) ->
  ans ++ pending s1 = pending s ++ new_req e -> NoDup (pending s1) ->
  (pending s1 = [] \/ prune ps = []) ->
  StepSpec e s (map (fun r => (r, 0)) ans) s1.
Proof.
  intros ND C L P W Q D E.
  assert (was_emptied s1 = false -> paths s1 <> [] /\ pending s1 = []) as K.
  { rewrite W, P. intros [_ N%negb_false_iff%nonempty_true]%orb_false_elim.
    destruct E as [Z|Z]; [auto|destruct (N Z)]. }
  constructor.
  - constructor; auto.
    + rewrite P. now apply prune_NoDup.
    + rewrite P. now destruct E.
    + intros F _. apply (K F).
    + intros F Z. destruct (K F) as [_ Z']. destruct (Z Z').
  - now rewrite map_fst_tag, Q.
  - intros r a -> F _. destruct (K F) as [_ Z]. rewrite Z, app_nil_r in Q.
    apply (in_map (fun r => (r, 0))). rewrite Q. apply in_or_app. right. now left.
  - intros r Hr. apply in_map_iff in Hr as [x [<- _]]. left. split; [reflexivity|exact C].
  - intros how ->. destruct (L how eq_refl).
  - rewrite W. now intros ->.
  - intros F _. apply (K F).
Qed.

(* insert_multiple finds nothing to add to an empty set, or makes paths known *)
Lemma insert_multiple_cases addrs s :
  Inv s ->
  (paths s = [] /\ addrs = [] /\ insert_multiple addrs s = ([], s)) \/
  (exists ps, NoDup (map pid ps) /\ (paths s <> [] \/ nonempty addrs = true) /\
     insert_multiple addrs s =
     (map (fun r => (r, 0)) (pending s),
      mkSt (prune ps) [] (lookup s) (selected s) (was_emptied s || negb (nonempty (prune ps))))).
Proof.
  intros I. unfold insert_multiple, prune_flag.
  destruct (list_nil_dec (fold_left add_unknown addrs (paths s))) as [E|NE].
  - left. rewrite E. apply fold_add_nil in E as [E ->]. rewrite E. destruct s as [ps pd lk sl w].
    cbn in *. subst ps. now rewrite orb_false_r.
  - right. exists (fold_left add_unknown addrs (paths s)). split; [apply fold_add_NoDup, I|].
    split.
    + destruct (list_nil_dec (paths s)) as [E|E]; [right|now left].
      destruct addrs; [now rewrite E in NE|reflexivity].
    + apply nonempty_true in NE. rewrite NE, emit_eq, NE.
      destruct (nonempty (paths s)) eqn:K; [|reflexivity].
      destruct (pending s) eqn:P; [reflexivity|]. apply nonempty_true in K. destruct K.
      apply (inv_pend _ I). congruence.
Qed.

Lemma insert_open_path_learn a rl s :
  insert_open_path a rl s =
  (map (fun r => (r, 0)) (pending s),
   mkSt (prune (set_open a rl (paths s))) [] (lookup s) (selected s)
        (was_emptied s || negb (nonempty (prune (set_open a rl (paths s)))))).
Proof.
  unfold insert_open_path, prune_flag. rewrite emit_eq.
  now rewrite (proj2 (nonempty_true _) (set_open_nonempty a rl (paths s))).
Qed.

(* trigger_address_lookup: a lookup runs afterwards unless a path is selected *)
Lemma StepSpec_trigger e s rs s2 :
  (forall l, (selected s2 = None -> l = true) ->
     StepSpec e s rs (mkSt (paths s2) (pending s2) l (selected s2) (was_emptied s2))) ->
  StepSpec e s rs (trigger_lookup s2).
Proof.
  intros H. destruct s2 as [ps pd lk [a|] w]; cbn.
  - apply H. discriminate.
  - replace (if lk then _ else _) with (mkSt ps pd true None w) by now destruct lk. now apply H.
Qed.

Lemma step_spec now ord e s :
  Inv s -> (forall r a, e = Resolve r a -> ~ In r (pending s)) ->
  StepSpec e s (fst (step now ord e s)) (snd (step now ord e s)).
Proof.
  intros I FR. unfold step. fold (reord ord s). apply (StepSpec_reord ord).
  change (pending s) with (pending (reord ord s)) in FR. apply (reord_Inv ord) in I.
  revert I FR. generalize (reord ord s). clear s. intros s I FR.
  destruct e as [req addrs|addrs| |how|a rl sel|a|].
  - (* Resolve: insert_multiple, then resolve_remote and trigger_address_lookup *)
    specialize (FR req addrs eq_refl). unfold resolve_remote.
    destruct (insert_multiple_cases addrs s I) as [(E & -> & ->)|(ps & ND & C & ->)]; cbn [paths].
    + (* no path is known and none is brought: the request waits, and a lookup runs unless a
         path is selected *)
      rewrite E. cbn [nonempty fst snd app]. apply StepSpec_trigger. intros l T.
      destruct I as [K1 K2 K3 K4 K5].
      apply StepSpec_quiet; cbn [paths pending lookup selected was_emptied new_req] in *; auto.
      * constructor; cbn [paths pending lookup selected was_emptied]; auto.
        -- constructor.
        -- now apply NoDup_snoc.
        -- intros W S. destruct (K4 W S E).
        -- intros W _. apply T. destruct (selected s) eqn:S; [|reflexivity].
           exfalso. apply (K4 W); [congruence|exact E].
    + destruct (nonempty (prune ps)) eqn:N; cbn [fst snd]; apply StepSpec_trigger; intros l _;
        cbn [paths pending lookup selected was_emptied app].
      * (* a path is known afterwards: answered at once *)
        change [(req, 0)] with (map (fun r => (r, 0)) [req]). rewrite <- map_app.
        apply (StepSpec_learn _ ps); cbn [paths pending was_emptied new_req];
          rewrite ?N, ?app_nil_r; auto; try discriminate. constructor.
      * (* this very prune emptied the set: the request waits *)
        rewrite app_nil_r.
        apply (StepSpec_learn _ ps); cbn [paths pending was_emptied new_req app]; rewrite ?N; auto;
          try discriminate.
        -- apply (NoDup_snoc []); [constructor|intros []].
        -- right. now apply nonempty_false.
  - destruct (lookup s); [|apply StepSpec_quiet; cbn [new_req]; auto using app_nil_r].
    destruct (insert_multiple_cases addrs s I) as [(E & -> & ->)|(ps & ND & C & ->)]; cbn [fst snd].
    + apply StepSpec_quiet; cbn [new_req]; auto using app_nil_r.
    + apply (StepSpec_learn _ ps); cbn [paths pending was_emptied new_req]; auto; try discriminate.
      constructor.
  - apply StepSpec_quiet; cbn [new_req]; auto using app_nil_r.
  - destruct (lookup s) eqn:L;
      [|apply StepSpec_quiet; cbn [new_req]; auto using app_nil_r].
    rewrite emit_eq. cbn [fst snd]. destruct I as [K1 K2 K3 K4 K5].
    constructor; cbn [paths pending lookup selected was_emptied]; auto.
    + constructor; cbn [paths pending lookup selected was_emptied]; auto; try congruence.
      constructor.
    + now rewrite map_fst_tag, !app_nil_r.
    + discriminate.
    + intros r Hr. apply in_map_iff in Hr as [x [<- _]]. cbn [snd].
      destruct (nonempty (paths s)) eqn:N.
      * left. split; [reflexivity|]. left. now apply nonempty_true.
      * right. apply nonempty_false in N. split.
        -- destruct (N.eqb_spec how 0); [discriminate|assumption].
        -- exists how. repeat split; auto. now destruct (how =? 0).
  - rewrite insert_open_path_learn. cbn [fst snd].
    apply (StepSpec_learn _ (set_open a rl (paths s)));
      [apply set_open_NoDup, I|now right|discriminate|now destruct sel..|
       destruct sel; constructor|destruct sel; now left].
  - apply StepSpec_quiet; cbn [paths new_req]; auto using app_nil_r.
    + apply Inv_paths; [exact I| |split; [apply map_eq_nil|now intros ->]].
      rewrite abandoned_pid. apply I.
    + intros P E. exact (P (map_eq_nil _ _ E)).
  - destruct I as [K1 K2 K3 K4 K5].
    apply StepSpec_quiet; cbn [new_req]; auto using app_nil_r.
    constructor; cbn; auto.
Qed.

Lemma sort_replies_perm rs : Permutation (map fst (sort_replies rs)) (map fst rs).
Proof. apply sort_map_perm. Qed.

Lemma known_after_eq ps : nonempty (map path_obs (sort_paths ps)) = nonempty ps.
Proof.
  transitivity (nonempty (sort_paths ps)); [now destruct (sort_paths ps)|apply nonempty_perm, sort_perm].
Qed.

Lemma reply_eqb_refl x : reply_eqb x x = true.
Proof. unfold reply_eqb. now rewrite !N.eqb_refl. Qed.

Lemma monitor_step_asked strict e o m :
  m_asked (snd (monitor_step strict e o m)) = new_req e ++ m_asked m.
Proof. now destruct e. Qed.

Record Tally (m : mstate) (s : state) : Prop := mkTally {
  y_known : m_known m = nonempty (paths s);
  y_lookup : m_lookup m = lookup s;
  (* every request asked so far has been answered or is waiting *)
  y_perm : Permutation (m_answered m ++ pending s) (m_asked m) }.

Lemma Tally_init : Tally (mkM false false [] []) init.
Proof. constructor; reflexivity. Qed.

Lemma monitor_step_tally strict e s rs s1 m :
  StepSpec e s rs s1 -> Tally m s -> NoDup (new_req e ++ m_asked m) ->
  Tally (snd (monitor_step strict e (obs_of rs s1) m)) s1 /\
  ((strict = true -> was_emptied s1 = false) ->
   fst (monitor_step strict e (obs_of rs s1) m) = true).
Proof.
  intros [[K1 K2 K3 K4 K5] S2 S3 S4 S5 S6 S7] [L1 L2 L3] ND.
  (* the law after the step: with distinct ids it is all the monitor asks about ids,
     and it is [y_perm] of the next state *)
  assert (Permutation (map fst (sort_replies rs) ++ m_answered m ++ pending s1)
                      (new_req e ++ m_asked m)) as P.
  { rewrite sort_replies_perm, Permutation_app_swap_app, S2, <- L3, app_assoc.
    apply Permutation_app_comm. }
  split.
  - constructor; rewrite ?monitor_step_asked;
      cbn [monitor_step snd m_known m_lookup m_answered obs_of o_replies o_paths o_lookup];
      rewrite ?known_after_eq, <- ?app_assoc; auto.
  - intros ST.
    apply (Permutation_NoDup (Permutation_sym P)), NoDup_app_iff in ND as (ND1 & _ & ND3).
    unfold monitor_step. cbn [fst obs_of o_replies o_paths o_pending o_lookup].
    (* one bullet per clause of [monitor_step], in its order *)
    rewrite known_after_eq. repeat (apply andb_true_iff; split).
    + apply forallb_forall. intros r Hr. apply (in_map fst) in Hr.
      apply andb_true_iff. split.
      * apply existsb_eqb_in. rewrite <- (monitor_step_asked strict e (obs_of rs s1) m) in P.
        apply (Permutation_in _ P), in_or_app. now left.
      * apply negb_true_iff, existsb_eqb_notin. intros K. apply (ND3 _ Hr), in_or_app. now left.
    + apply nodupb_iff, ND1.
    + clear -S3 ST L1. destruct e as [req addrs| | | | | |]; try reflexivity.
      destruct strict; [|reflexivity]. apply implb_true_iff. intros C.
      apply existsb_exists. exists (req, 0). split; [|apply reply_eqb_refl].
      apply sort_in, (S3 req addrs eq_refl (ST eq_refl)).
      rewrite L1 in C. apply orb_prop in C as [C|C]; [left|right]; apply nonempty_true, C.
    + apply forallb_forall. intros r Hr. apply sort_in in Hr.
      clear -S4 Hr L1 L2. destruct (S4 r Hr) as [[C P]|[C [how [-> [P1 [P2 [P3 P4]]]]]]].
      * rewrite C, L1. cbn. apply orb_true_iff.
        destruct P as [P|P]; [left; apply nonempty_true, P|right; exact P].
      * rewrite (proj2 (N.eqb_neq _ _) C), L1, L2, P1, P2, P3, P4. cbn. apply N.eqb_refl.
    + clear -S5 L2. destruct e as [| | |how| | |]; try reflexivity. apply implb_true_iff. intros ML.
      rewrite (S5 how eq_refl); [reflexivity|congruence].
    + rewrite len_pos. apply implb_true_iff. intros NP. apply nonempty_true in NP.
      rewrite (K2 NP). destruct strict; [|reflexivity]. cbn. apply K5; auto.
    + destruct strict; [|reflexivity]. apply implb_true_iff. rewrite L1. intros P'%nonempty_true.
      apply nonempty_true, (S7 (ST eq_refl) P').
Qed.

Definition final (i : input) : state := snd (run 1 i init).
Definition observations (i : input) : list obs := fst (run 1 i init).
Definition all_replied (os : list obs) : list N := flat_map (fun o => map fst (o_replies o)) os.

Lemma req_ids_cons ord e i : req_ids ((ord, e) :: i) = new_req e ++ req_ids i.
Proof. unfold req_ids. cbn [flat_map snd]. now destruct e. Qed.

Lemma run_cons now ord e i s :
  run now ((ord, e) :: i) s =
  (obs_of (fst (step now ord e s)) (snd (step now ord e s)) ::
     fst (run (now + 1) i (snd (step now ord e s))),
   snd (run (now + 1) i (snd (step now ord e s)))).
Proof.
  cbn [run]. destruct (step now ord e s) as [rs s1]. cbn [fst snd].
  now destruct (run (now + 1) i s1).
Qed.

(* one induction along the history: the invariant, the conservation of requests, the monitor *)
Lemma run_spec strict i : forall now s m,
  Inv s -> Tally m s -> NoDup (m_asked m ++ req_ids i) ->
  Inv (snd (run now i s)) /\
  (was_emptied s = true -> was_emptied (snd (run now i s)) = true) /\
  Permutation (all_replied (fst (run now i s)) ++ pending (snd (run now i s)))
              (pending s ++ req_ids i) /\
  ((strict = true -> was_emptied (snd (run now i s)) = false) ->
   monitor_run strict i (fst (run now i s)) m = true).
Proof.
  induction i as [|[ord e] i IH]; intros now s m I L ND.
  - cbn. rewrite app_nil_r. auto.
  - rewrite req_ids_cons, app_assoc in ND.
    apply (Permutation_NoDup (Permutation_app_tail _ (Permutation_app_comm _ _))) in ND.
    pose proof (proj1 (proj1 (NoDup_app_iff _ _) ND)) as NDe.
    assert (StepSpec e s (fst (step now ord e s)) (snd (step now ord e s))) as SP.
    { apply step_spec; [exact I|]. intros r a -> K. inversion NDe as [|? ? F _]. apply F.
      apply (Permutation_in _ (y_perm _ _ L)), in_or_app. now right. }
    rewrite run_cons. cbn [fst snd monitor_run all_replied flat_map obs_of o_replies]. fold all_replied.
    set (rs := fst (step now ord e s)) in *. set (s1 := snd (step now ord e s)) in *.
    destruct (monitor_step_tally strict e s rs s1 m SP L NDe) as [L1 OK].
    rewrite <- (monitor_step_asked strict e (obs_of rs s1) m) in ND.
    destruct (monitor_step strict e (obs_of rs s1) m) as [ok m']. cbn [fst snd] in *.
    destruct (IH (now + 1) s1 m' (sp_inv _ _ _ _ SP) L1 ND) as (I2 & W2 & P2 & M2).
    split; [exact I2|]. split; [intros W; apply W2, (sp_mono _ _ _ _ SP W)|]. split.
    + rewrite <- app_assoc, req_ids_cons.
      apply (Permutation_trans (Permutation_app (sort_replies_perm _) P2)).
      rewrite !app_assoc. apply Permutation_app_tail, SP.
    + intros ST. rewrite (M2 ST), OK; [reflexivity|].
      intros E. destruct (was_emptied s1); [|reflexivity]. rewrite (W2 eq_refl) in ST. exact (ST E).
Qed.

Lemma run_init strict i :
  NoDup (req_ids i) ->
  Inv (final i) /\
  Permutation (all_replied (observations i) ++ pending (final i)) (req_ids i) /\
  ((strict = true -> was_emptied (final i) = false) ->
   monitor_run strict i (observations i) (mkM false false [] []) = true).
Proof.
  intros ND. destruct (run_spec strict i 1 init _ Inv_init Tally_init ND) as (I & _ & P & M). auto.
Qed.

Lemma model_monitor_gen strict i :
  (strict = true -> known i = 0) -> monitor_gen strict i (model i) = true.
Proof.
  intros K. unfold monitor_gen, model. destruct (nodupN (req_ids i)) eqn:ND; [|reflexivity].
  destruct (run_init strict i) as (_ & _ & M); [now apply nodupb_iff|]. apply M.
  intros E. specialize (K E). unfold known, known_of in K. rewrite ND in K.
  unfold final. now destruct (was_emptied (snd (run 1 i init))).
Qed.

(* [t_*] are what Props/C22.v states *)
Lemma t_final_state i :
  NoDup (req_ids i) ->
  NoDup (map pid (paths (final i))) /\
  (pending (final i) <> [] -> paths (final i) = []) /\
  (was_emptied (final i) = false -> pending (final i) <> [] -> lookup (final i) = true) /\
  (was_emptied (final i) = false -> selected (final i) <> None -> paths (final i) <> []).
Proof.
  intros ND. destruct (run_init false i ND) as ([H1 H2 H3 H4 H5] & _).
  exact (conj H1 (conj H2 (conj H5 H4))).
Qed.

Lemma t_reply_at_most_once i :
  NoDup (req_ids i) ->
  NoDup (all_replied (observations i)) /\ incl (all_replied (observations i)) (req_ids i).
Proof.
  intros ND. destruct (run_init false i ND) as (_ & P & _). split.
  - apply (Permutation_NoDup (Permutation_sym P)), NoDup_app_iff in ND. exact (proj1 ND).
  - intros r Hr. apply (Permutation_in _ P), in_or_app. now left.
Qed.

Lemma t_model_monitor i : known i = 0 -> monitor i (model i) = true.
Proof. intros K. now apply (model_monitor_gen true). Qed.
Lemma t_model_monitor_core i : monitor_gen false i (model i) = true.
Proof. apply model_monitor_gen. discriminate. Qed.

Definition w_open : list N := [0;1;2;3;4;5;6;8;9;10].
Definition w_more : list N := [11;12;13;14;16;17;18;19;20;21;22;24;25;26;27;28;29;30;32;33].
(* 10 paths opened (the first is selected), 20 more addresses learned, all 30 abandoned; the
   next address-less request prunes the path set to empty and waits although no lookup runs *)
Definition witness : input :=
  map (fun a => ([], OpenPath a false (a =? 0))) w_open ++
  [([], Resolve 0 (map (fun a => (a, false)) w_more))] ++
  map (fun a => ([], Abandon a)) (w_open ++ w_more) ++
  [([], Resolve 1 [])].

Example witness_known : known witness = 1.
Proof. vm_compute. reflexivity. Qed.
Example witness_monitor : monitor witness (model witness) = false.
Proof. vm_compute. reflexivity. Qed.
Example witness_shape :
  len (paths (final (removelast witness))) = 30 /\
  paths (final witness) = [] /\ pending (final witness) = [1] /\ lookup (final witness) = false /\
  selected (final witness) = Some 0.
Proof.
  (* named, the final state is evaluated once for its four readings: coqchk re-runs the
     evaluation without the VM, and every occurrence of a closed term on its own *)
  set (s := final witness). vm_compute. auto.
Qed.

Lemma t_known_violates : exists i, known i = 1 /\ monitor i (model i) = false.
Proof. exists witness. split; [exact witness_known|exact witness_monitor]. Qed.

Lemma t_paths_never_emptied_refuted :
  exists i e, NoDup (req_ids (i ++ [e])) /\ paths (final i) <> [] /\ paths (final (i ++ [e])) = [] /\
              pending (final (i ++ [e])) <> [] /\ lookup (final (i ++ [e])) = false.
Proof.
  exists (removelast witness), ([], Resolve 1 []).
  change (removelast witness ++ [([], Resolve 1 [])]) with witness.
  destruct witness_shape as (L & P & Q & K & _).
  split; [apply nodupb_iff; vm_compute; reflexivity|].
  rewrite P, Q, K. repeat split; [|discriminate]. intros E. rewrite E in L. discriminate L.
Qed.

(* non-vacuity: histories outside the known class with waiting, Ok and failed replies *)
Example ex_regression_tests :
  let i := [([], Resolve 0 []); ([], Resolve 1 []); ([], LookupItem [(4, false)]);
            ([4], Resolve 2 []); ([4], LookupEnd 0)] in
  known i = 0 /\ map o_replies (observations i) = [[]; []; [(0, 0); (1, 0)]; [(2, 0)]; []].
Proof. vm_compute. auto. Qed.
Example ex_failure :
  let i := [([], Resolve 0 []); ([], LookupEnd 3); ([], Resolve 1 []); ([], LookupEnd 0)] in
  known i = 0 /\ map o_replies (observations i) = [[]; [(0, 3)]; []; [(1, 2)]].
Proof. vm_compute. auto. Qed.

