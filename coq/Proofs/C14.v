(* C14 — the PingTracker.  Its state is a function of its history (st_of); this puts the
   monitor on every run of the model, and the monitor says what precedes a completed timeout. *)
From V Require Import Lib.Base Gen.Consts Model.C14.
From V Require Proofs.C09.
From V Require Import Lib.LiaBool.
Import C14.
Local Open Scope Z_scope.

Lemma MIN_TO_val : MIN_TO = 500000000.
Proof. reflexivity. Qed.

Lemma stale_or_forged_pong_noop s now data :
  (forall p, inner s = Some p -> pdata p <> data) -> pong s now data = s.
Proof.
  intros H. unfold pong. destruct (inner s) as [p|] eqn:E; [|reflexivity].
  destruct (N.eqb (pdata p) data) eqn:Eq; [|reflexivity].
  apply N.eqb_eq in Eq. exfalso. exact (H p eq_refl Eq).
Qed.

Lemma rtt_only_from_latest s now data :
  last_rtt (pong s now data) <> last_rtt s ->
  exists p, inner s = Some p /\ pdata p = data /\
            last_rtt (pong s now data) = Some (now - sent_at p) /\
            inner (pong s now data) = None.
Proof.
  unfold pong. destruct (inner s) as [p|] eqn:E; [|congruence].
  destruct (N.eqb (pdata p) data) eqn:Eq; [|congruence].
  intros _. exists p. apply N.eqb_eq in Eq. cbn. auto.
Qed.

Lemma rtt_preserved_by_ping s now t d : last_rtt (new_ping_with s now t d) = last_rtt s.
Proof. reflexivity. Qed.

Lemma rtt_preserved_by_timeout s now : last_rtt (fst (timeout_poll s now)) = last_rtt s.
Proof. unfold timeout_poll. destruct (inner s) as [p|]; [destruct (fired _ _)|]; reflexivity. Qed.

(* the hypotheses: the constructor's precondition; 3 * rtt fits a Duration *)
Lemma ping_timeout_ok s :
  MIN_TO <= max_timeout s -> (forall r, last_rtt s = Some r -> 3 * r <= DUR_MAX) ->
  ping_timeout s = Ok (spec_timeout (max_timeout s) (last_rtt s)).
Proof.
  intros Hm Hr. unfold ping_timeout, spec_timeout. destruct (last_rtt s) as [r|]; [|reflexivity].
  specialize (Hr r eq_refl). rewrite (Z.mul_comm r 3).
  destruct (Z.ltb_spec DUR_MAX (3 * r)); [lia|]. destruct (Z.ltb_spec (max_timeout s) MIN_TO); [lia|].
  f_equal. destruct (Z.ltb_spec (3 * r) MIN_TO); [lia|].
  destruct (Z.ltb_spec (max_timeout s) (3 * r)); lia.
Qed.

Lemma timeout_default s : last_rtt s = None -> ping_timeout s = Ok (max_timeout s).
Proof. intros H. unfold ping_timeout. now rewrite H. Qed.

Lemma timeout_clamp s r :
  MIN_TO <= max_timeout s -> last_rtt s = Some r -> 0 <= r -> 3 * r <= DUR_MAX ->
  ping_timeout s = Ok (Z.max MIN_TO (Z.min (max_timeout s) (3 * r))) /\
  MIN_TO <= Z.max MIN_TO (Z.min (max_timeout s) (3 * r)) <= max_timeout s /\
  forall now d, exists s', new_ping s now d = Ok s' /\
    inner s' = Some (mkP d (now + Z.max MIN_TO (Z.min (max_timeout s) (3 * r))) now).
Proof.
  intros Hm Hr _ H3.
  assert (P : ping_timeout s = Ok (Z.max MIN_TO (Z.min (max_timeout s) (3 * r)))).
  { rewrite (ping_timeout_ok s Hm), Hr; [reflexivity|].
    intros r' E. rewrite Hr in E. now injection E as <-. }
  split; [exact P|]. split; [lia|].
  intros now d. unfold new_ping. rewrite P. eexists. split; reflexivity.
Qed.

(* std's clamp asserts min <= max *)
Lemma clamp_precondition s r :
  max_timeout s < MIN_TO -> last_rtt s = Some r -> 3 * r <= DUR_MAX ->
  ping_timeout s = Panic /\ forall now d, new_ping s now d = Panic.
Proof.
  intros Hm Hr H3. assert (P : ping_timeout s = Panic).
  { unfold ping_timeout. rewrite Hr. rewrite (Z.mul_comm r 3).
    destruct (DUR_MAX <? 3 * r) eqn:E1; [reflexivity|].
    destruct (max_timeout s <? MIN_TO) eqn:E2; [reflexivity|lia]. }
  split; [exact P|]. intros. unfold new_ping. now rewrite P.
Qed.

(* C14.fired and C09.fired are two definitions with one body (so are the two NS_PER_MS): the
   lemma of C09 applies by conversion *)
Lemma fired_le d now : fired d now = true -> d <= now.
Proof. exact (Proofs.C09.fired_le d now). Qed.

Lemma timeout_only_past_deadline s now s' :
  timeout_poll s now = (s', true) ->
  exists p, inner s = Some p /\ deadline p <= now /\ fired (deadline p) now = true /\ inner s' = None.
Proof.
  unfold timeout_poll. destruct (inner s) as [p|] eqn:E; [|intros [= _ ?]; discriminate].
  destruct (fired (deadline p) now) eqn:F; intros [= <-].
  exists p. split; [reflexivity|]. split; [apply fired_le; exact F|]. split; [exact F|reflexivity].
Qed.

(* x leaves a ping that carried d outstanding *)
Definition quiet (d : N) (x : hev) : Prop :=
  match x with
  | (NewPing _, _, _) | (NewPingT _ _, _, _) => False
  | (Pong d', _, _) => d' <> d
  | (Timeout, _, r) => r = false
  | (Advance _, _, _) => True
  end.

(* the most recent ping in h (newest first) carried d, was sent at sa with deadline dl, and
   no pong with payload d or completed timeout has followed.  outstanding_sound and
   dead_only_if_latest_unanswered spell the body out, as Props/C14.v states them. *)
Definition latest (mx : Z) (h : list hev) (d : N) (sa dl : Z) : Prop :=
  exists h1 e r h2, h = h1 ++ (e, sa, r) :: h2 /\ Forall (quiet d) h1 /\
    ((e = NewPing d /\ dl = sa + spec_timeout mx (snd (scan mx h2))) \/
     (exists t, e = NewPingT t d /\ dl = sa + t)).

Lemma latest_cons mx h d sa dl x : quiet d x -> latest mx h d sa dl -> latest mx (x :: h) d sa dl.
Proof.
  intros Q (h1 & e & r & h2 & -> & Q1 & P). exists (x :: h1), e, r, h2.
  split; [reflexivity|]. split; [now constructor|exact P].
Qed.

Lemma outstanding_sound mx h : forall d sa dl,
  fst (scan mx h) = Some (d, sa, dl) ->
  exists h1 e r h2, h = h1 ++ (e, sa, r) :: h2 /\ Forall (quiet d) h1 /\
    ((e = NewPing d /\ dl = sa + spec_timeout mx (snd (scan mx h2))) \/
     (exists t, e = NewPingT t d /\ dl = sa + t)).
Proof.
  change (forall d sa dl, fst (scan mx h) = Some (d, sa, dl) -> latest mx h d sa dl).
  induction h as [|[[e at_] f] h IH]; intros d sa dl; cbn [scan]; [discriminate|].
  destruct (scan mx h) as [o r] eqn:Es. cbn [fst snd] in IH.
  destruct e as [dt|d0|t d0|d'|].
  - intros H. apply latest_cons; [exact I|now apply IH].
  - intros [= <- <- <-]. exists [], (NewPing d0), f, h.
    split; [reflexivity|]. split; [constructor|]. left. now rewrite Es.
  - intros [= <- <- <-]. exists [], (NewPingT t d0), f, h.
    split; [reflexivity|]. split; [constructor|]. right. eauto.
  - destruct o as [[[d1 sa1] dl1]|]; [|discriminate].
    destruct (N.eqb_spec d1 d'); [discriminate|].
    intros [= <- <- <-]. apply latest_cons; [cbn; congruence|now apply IH].
  - destruct f; [discriminate|]. intros H. apply latest_cons; [reflexivity|now apply IH].
Qed.

(* scan's (data, sent_at, deadline) as the tracker's record *)
Definition ping_of (x : N * Z * Z) : ping := let '(d, sa, dl) := x in mkP d dl sa.

Definition st_of (mx : Z) (h : list hev) : st :=
  mkS (option_map ping_of (fst (scan mx h))) mx (snd (scan mx h)).

(* pings are sent after the start of the clock and a round trip is shorter than the time
   since then: this keeps 3 * rtt within a Duration *)
Definition bounded (now : Z) (s : st) : Prop :=
  (forall p, inner s = Some p -> 0 <= sent_at p) /\ (forall r, last_rtt s = Some r -> r <= now).

Lemma time_max_3 x : x <= TIME_MAX -> 3 * x <= DUR_MAX.
Proof. unfold TIME_MAX. pose proof (Z.mul_div_le DUR_MAX 3 ltac:(lia)). lia. Qed.

Lemma ping_timeout_scan mx h now :
  MIN_TO <= mx -> bounded now (st_of mx h) -> now <= TIME_MAX ->
  ping_timeout (st_of mx h) = Ok (spec_timeout mx (snd (scan mx h))).
Proof.
  intros Hm [_ Hb] Hn. apply (ping_timeout_ok (st_of mx h) Hm).
  intros r Hr. apply Hb in Hr. apply time_max_3. lia.
Qed.

(* mon's [now'] *)
Definition now_after (now : Z) (e : ev) : Z :=
  match e with Advance dt => now + dt | _ => now end.

(* the last conjunct is mon's first clause word for word: run_mon rewrites with it *)
Lemma step_scan mx h now e :
  MIN_TO <= mx -> bounded now (st_of mx h) -> 0 <= now -> wf_ev e = true ->
  now_after now e <= TIME_MAX ->
  exists r, step (st_of mx h) now e = Ok (st_of mx ((e, now, r) :: h), now_after now e, r) /\
    bounded (now_after now e) (st_of mx ((e, now, r) :: h)) /\
    (match e with
     | Timeout => if r then match fst (scan mx h) with
                            | Some (_, _, dl) => fired dl now
                            | None => false
                            end
                  else true
     | _ => negb r
     end) = true.
Proof.
  intros Hm B H0 Hw Hn. pose proof (ping_timeout_scan mx h now Hm B) as Hpt. destruct B as [Bs Br].
  unfold st_of in *. cbn [scan inner last_rtt] in *. destruct (scan mx h) as [o rr].
  cbn [fst snd] in *.
  destruct e as [dt|d|t d|d'|]; cbn [step now_after wf_ev] in *.
  - exists false. repeat split; [exact Bs|]. intros r Hr. apply Br in Hr. lia.
  - exists false. unfold new_ping. rewrite (Hpt Hn). repeat split; [|exact Br].
    intros p [= <-]. exact H0.
  - exists false. repeat split; [|exact Br]. intros p [= <-]. exact H0.
  - exists false. unfold pong. destruct o as [[[d1 sa1] dl1]|]; [|now repeat split].
    cbn [option_map ping_of inner pdata sent_at]. destruct (N.eqb d1 d'); [|now repeat split].
    repeat split; [discriminate|]. intros r [= <-]. specialize (Bs _ eq_refl). cbn in Bs. lia.
  - unfold timeout_poll. destruct o as [[[d1 sa1] dl1]|]; [|exists false; now repeat split].
    cbn [option_map ping_of inner deadline]. exists (fired dl1 now).
    destruct (fired dl1 now); repeat split; try assumption; discriminate.
Qed.

Lemma total_time_nonneg es : forallb wf_ev es = true -> 0 <= total_time es.
Proof.
  induction es as [|e es IH]; cbn [forallb total_time]; [lia|].
  intros H. apply andb_prop in H as [He Hes]. specialize (IH Hes).
  destruct e; cbn [wf_ev] in He; lia.
Qed.

Lemma now_after_total now e es : now_after now e + total_time es = now + total_time (e :: es).
Proof. destruct e; cbn [now_after total_time]; lia. Qed.

Lemma now_after_nonneg now e : 0 <= now -> wf_ev e = true -> 0 <= now_after now e.
Proof. destruct e; cbn [now_after wf_ev]; lia. Qed.

Lemma run_mon mx es : forall h now,
  MIN_TO <= mx -> bounded now (st_of mx h) -> 0 <= now -> forallb wf_ev es = true ->
  now + total_time es <= TIME_MAX ->
  exists os, run (st_of mx h) now es = Ok os /\ mon mx h now es os = true.
Proof.
  induction es as [|e es IH]; intros h now Hm B H0 Hwf Ht; cbn [run]; [now exists []|].
  cbn [forallb] in Hwf. apply andb_prop in Hwf as [He Hes].
  pose proof (total_time_nonneg es Hes) as Htn. rewrite <- now_after_total in Ht.
  pose proof (now_after_nonneg now e H0 He) as H0'.
  assert (Hn : now_after now e <= TIME_MAX) by (clear - Ht Htn; lia).
  destruct (step_scan mx h now e Hm B H0 He Hn) as (r & -> & B' & Hc).
  destruct (IH _ _ Hm B' H0' Hes Ht) as (os & -> & Hmon).
  eexists. split; [reflexivity|]. cbn [mon]. fold (now_after now e).
  unfold pt_obs. rewrite (ping_timeout_scan mx _ _ Hm B' Hn), Hc, Hmon.
  cbn [opt_eqb]. now rewrite Z.eqb_refl.
Qed.

Lemma model_mon mx es :
  MIN_TO <= mx -> forallb wf_ev es = true -> total_time es <= TIME_MAX ->
  exists os, model (mx, es) = Ok os /\ mon mx [] 0 es os = true.
Proof.
  intros Hm He Ht. apply (run_mon mx es [] 0); try assumption; [|lia].
  split; intros; discriminate.
Qed.

Lemma model_monitor i : monitor i (model i) = true.
Proof.
  unfold monitor. destruct (wf_input i && (total_time (snd i) <=? TIME_MAX)) eqn:Hw; [|reflexivity].
  cbn [negb]. apply andb_prop in Hw as [Hw Ht]. unfold wf_input in Hw.
  apply andb_prop in Hw as [Hw He]. apply andb_prop in Hw as [Hm _].
  destruct i as [mx es]. cbn [fst snd] in *. apply Z.leb_le in Hm, Ht.
  now destruct (model_mon mx es Hm He Ht) as (os & -> & Hmon).
Qed.

(* history (newest first) and time before the k-th event *)
Fixpoint hist_of (now : Z) (es : list ev) (os : list obs) (h : list hev) (k : nat) : list hev * Z :=
  match k, es, os with
  | S k', e :: es', (r, _) :: os' => hist_of (now_after now e) es' os' ((e, now, r) :: h) k'
  | _, _, _ => (h, now)
  end.

Lemma mon_dead mx : forall k es os h now pt,
  mon mx h now es os = true ->
  nth_error es k = Some Timeout -> nth_error os k = Some (true, pt) ->
  let '(hk, tk) := hist_of now es os h k in
  exists d sa dl, fst (scan mx hk) = Some (d, sa, dl) /\ fired dl tk = true.
Proof.
  induction k as [|k IH]; intros [|e es] [|[r p] os] h now pt Hmon He Ho; try discriminate;
    cbn [mon] in Hmon; apply andb_prop in Hmon as [Hc Hmon].
  - injection He as ->. injection Ho as -> ->. apply andb_prop in Hc as [Hc _]. cbn [hist_of].
    destruct (fst (scan mx h)) as [[[d sa] dl]|]; [eauto|discriminate].
  - exact (IH es os _ _ pt Hmon He Ho).
Qed.

(* timeout() completes only if the latest ping is unanswered and past its deadline *)
Lemma dead_only_if_latest_unanswered mx es os k pt :
  MIN_TO <= mx <= DUR_MAX -> forallb wf_ev es = true -> total_time es <= TIME_MAX ->
  model (mx, es) = Ok os ->
  nth_error es k = Some Timeout -> nth_error os k = Some (true, pt) ->
  let '(hk, tk) := hist_of 0 es os [] k in
  exists d sa dl h1 e r h2,
    hk = h1 ++ (e, sa, r) :: h2 /\ Forall (quiet d) h1 /\
    ((e = NewPing d /\ dl = sa + spec_timeout mx (snd (scan mx h2))) \/
     (exists t, e = NewPingT t d /\ dl = sa + t)) /\
    dl <= tk.
Proof.
  intros [Hm _] Hwf Ht Hmod He Ho.
  destruct (model_mon mx es Hm Hwf Ht) as (os' & E & Hmon). rewrite Hmod in E. injection E as <-.
  pose proof (mon_dead mx k es os [] 0 pt Hmon He Ho) as H.
  destruct (hist_of 0 es os [] k) as [hk tk].
  destruct H as (d & sa & dl & Hs & Hf).
  destruct (outstanding_sound mx hk d sa dl Hs) as (h1 & e & r & h2 & Hh & Q & P).
  exists d, sa, dl, h1, e, r, h2. repeat split; auto. apply fired_le; exact Hf.
Qed.

(* ping, pong after 100 ms (rtt 100 ms -> timeout clamped up to MIN 500 ms),
   stale pong, new ping, forged pong, deadline passes -> dead *)
Example history_example :
  model (5000000000,
    [NewPing 11; Advance 100000000; Pong 11; NewPing 12; Pong 11; Pong 99;
     Advance 499000000; Timeout; Advance 1000000; Timeout; Timeout])
  = Ok [(false, Some 5000000000); (false, Some 5000000000); (false, Some 500000000);
        (false, Some 500000000); (false, Some 500000000); (false, Some 500000000);
        (false, Some 500000000); (false, Some 500000000); (false, Some 500000000);
        (true, Some 500000000); (false, Some 500000000)].
Proof. vm_compute. reflexivity. Qed.

(* rtt 1 s -> 3 s ; rtt 2 s -> clamped to max 5 s *)
Example clamp_example :
  model (5000000000, [NewPing 1; Advance 1000000000; Pong 1; NewPing 2; Advance 2000000000; Pong 2])
  = Ok [(false, Some 5000000000); (false, Some 5000000000); (false, Some 3000000000);
        (false, Some 3000000000); (false, Some 3000000000); (false, Some 5000000000)].
Proof. vm_compute. reflexivity. Qed.

(* precondition violated: max 499 ms, first measured rtt, next new_ping panics *)
Example precondition_example :
  model (499000000, [NewPing 1; Pong 1; NewPing 2]) = Panic.
Proof. vm_compute. reflexivity. Qed.
