(* C18 — mapped addresses.  `inv`: the two maps of an AddrMap are mutually inverse and hold typed
   addresses; `get_answer` is an answering get under it.  `Sync`: the monitor's record of earlier
   gets answers like the maps, which is why the model's own run passes it.  The last part is about
   ANY observed trace the monitor accepts: its record of gets is `coherent`. *)
From V Require Import Lib.Base Lib.Lists Lib.Trace Gen.Consts Model.C18.
Import C18.
Open Scope N_scope.

Lemma bytes_eqb_iff a b : bytes_eqb a b = true <-> a = b.
Proof. exact (Base.bytes_eqb_iff a b). Qed.

Lemma kind_eqb_refl k : kind_eqb k k = true.
Proof. now destruct k. Qed.

Lemma kind_eqb_eq a b : kind_eqb a b = true -> a = b.
Proof. destruct a, b; (reflexivity || discriminate). Qed.

Lemma sockaddr_eqb_refl a : sockaddr_eqb a a = true.
Proof. destruct a; cbn; rewrite ?N.eqb_refl, ?bytes_eqb_refl; reflexivity. Qed.

Lemma sockaddr_eqb_eq a b : sockaddr_eqb a b = true -> a = b.
Proof.
  destruct a, b; cbn; try discriminate.
  - now intros [->%N.eqb_eq ->%N.eqb_eq]%andb_prop.
  - now intros [[[->%bytes_eqb_eq ->%N.eqb_eq]%andb_prop ->%N.eqb_eq]%andb_prop ->%N.eqb_eq]%andb_prop.
Qed.

Lemma mapped_eqb_refl a : mapped_eqb a a = true.
Proof. destruct a; cbn; auto using bytes_eqb_refl, sockaddr_eqb_refl. Qed.

Lemma taddr_eqb_refl a : taddr_eqb a a = true.
Proof. destruct a; cbn; auto using N.eqb_refl, sockaddr_eqb_refl. Qed.

Lemma opt_taddr_eqb_refl (x : option taddr) : opt_eqb taddr_eqb x x = true.
Proof. apply opt_eqb_refl, taddr_eqb_refl. Qed.

Lemma find_k_ins k a l k' :
  find_k k' (ins_k k a l) = if N.eqb k k' then Some a else find_k k' l.
Proof.
  unfold ins_k. cbn [find_k]. destruct (N.eqb k k') eqn:E; [reflexivity|].
  induction l as [|[k0 a0] l IH]; [reflexivity|]. cbn [filter fst find_k].
  destruct (N.eqb_spec k0 k) as [->|_]; cbn [negb find_k]; rewrite IH; [now rewrite E|reflexivity].
Qed.

Lemma find_a_ins a k l a' :
  find_a a' (ins_a a k l) = if bytes_eqb a a' then Some k else find_a a' l.
Proof.
  unfold ins_a. cbn [find_a]. destruct (bytes_eqb a a') eqn:E; [reflexivity|].
  induction l as [|[a0 k0] l IH]; [reflexivity|]. cbn [filter fst find_a].
  destruct (bytes_eqb a0 a) eqn:E0; cbn [negb find_a]; rewrite IH; [|reflexivity].
  apply bytes_eqb_eq in E0. subst a0. now rewrite E.
Qed.

Lemma ins_k_fresh k a l : find_k k l = None -> ins_k k a l = (k, a) :: l.
Proof.
  intros H. unfold ins_k. f_equal. induction l as [|[k0 a0] l IH]; [reflexivity|].
  cbn [find_k] in H. cbn [filter fst]. destruct (N.eqb k0 k); [discriminate|]. cbn [negb]. now rewrite IH.
Qed.

Lemma ins_a_fresh a k l : find_a a l = None -> ins_a a k l = (a, k) :: l.
Proof.
  intros H. unfold ins_a. f_equal. induction l as [|[a0 k0] l IH]; [reflexivity|].
  cbn [find_a] in H. cbn [filter fst]. destruct (bytes_eqb a0 a); [discriminate|]. cbn [negb]. now rewrite IH.
Qed.

Lemma first_fresh_spec lk cs a : first_fresh lk cs = Some a -> In a cs /\ find_a a lk = None.
Proof.
  induction cs as [|c r IH]; cbn; [discriminate|].
  destruct (find_a c lk) eqn:E.
  - intros H. destruct (IH H). auto.
  - intros [= <-]. auto.
Qed.

Lemma first_fresh_some lk cs c : In c cs -> find_a c lk = None -> first_fresh lk cs <> None.
Proof.
  induction cs as [|c0 r IH]; intros Hin Hc; [destruct Hin|].
  cbn. destruct (find_a c0 lk) eqn:E; [|discriminate].
  destruct Hin as [->|Hin]; [congruence|auto].
Qed.

(* TryFrom succeeds exactly on the addresses that start with the 8 reserved octets *)
Lemma in_subnet_prefix sub o : length sub = 2%nat ->
  (in_subnet sub o = true <-> firstn 8 o = ADDR_PREFIXL :: ADDR_GLOBAL_ID ++ sub).
Proof.
  destruct sub as [|s0 [|s1 [|]]]; try discriminate. intros _.
  eapply iff_trans.
  { unfold in_subnet. apply andb_assoc_iff, andb_iff; [apply N.eqb_eq|].
    apply andb_iff; apply bytes_eqb_iff. }
  split.
  - intros (H1 & H2 & H3). do 8 (destruct o as [|? o]; [discriminate H3|]).
    exact (f_equal2 cons H1 (f_equal2 (@app N) H2 H3)).
  - intros H. rewrite <- (firstn_skipn 8 o), H. now repeat split.
Qed.

(* the match C18_classify_complete spells out; the KScript branch is a filler, every statement
   about it has k <> KScript *)
Definition mk_mapped (k : kind) (o : bytes) : mapped :=
  match k with KMixed => MMixed o | KRelay => MRelay o | KCustom => MCustom o | KScript => MIp (SV6 o 0 0 0) end.

(* the model's `prefix7` (the 8 octets a mapped address of kind k starts with) under the name the
   statements here use; the two are convertible *)
Definition prefix_of (k : kind) : bytes := ADDR_PREFIXL :: ADDR_GLOBAL_ID ++ subnet k.

Lemma prefix7_eq k : prefix7 k = prefix_of k.
Proof. reflexivity. Qed.

Lemma typed_eqb k o : k <> KScript -> typed k o = bytes_eqb (firstn 8 o) (prefix_of k).
Proof.
  intros Hk. apply Bool.eq_true_iff_eq. rewrite bytes_eqb_iff.
  destruct k; try congruence; now apply in_subnet_prefix.
Qed.

(* From<SocketAddr> on an IPv6 address looks at its first 8 octets only: the first kind of the
   table whose prefix they are, Ip if none *)
Lemma classify_firstn o p f s :
  classify (SV6 o p f s) =
    match find (fun k => bytes_eqb (firstn 8 o) (prefix_of k)) [KMixed; KRelay; KCustom] with
    | Some k => mk_mapped k o
    | None => MIp (SV6 o p f s)
    end.
Proof.
  cbn [classify find]. rewrite <- !typed_eqb by discriminate. cbn [typed subnet].
  now destruct (in_subnet ENDPOINT_ID_SUBNET o), (in_subnet RELAY_MAPPED_SUBNET o),
    (in_subnet CUSTOM_MAPPED_SUBNET o).
Qed.

Lemma classify_complete k o p f s : k <> KScript ->
  firstn 8 o = prefix_of k -> classify (SV6 o p f s) = mk_mapped k o.
Proof.
  intros Hk H. rewrite classify_firstn, H.
  (* the three prefixes differ, so the search stops at k *)
  destruct k; (reflexivity || congruence).
Qed.

Lemma classify_typed k o p f s : k <> KScript -> typed k o = true ->
  classify (SV6 o p f s) = mk_mapped k o.
Proof.
  intros Hk Ht. rewrite typed_eqb in Ht by exact Hk. now apply classify_complete, bytes_eqb_eq.
Qed.

Lemma classify_sound sa m : classify sa = m ->
  match m with
  | MIp sa' => sa' = sa
  | _ => exists k o p f s, kind_of_mapped m = Some k /\ sa = SV6 o p f s /\ mapped_octets m = o
                          /\ firstn 8 o = prefix_of k
  end.
Proof.
  intros <-. destruct sa as [ip p|o p f s]; [reflexivity|]. rewrite classify_firstn.
  destruct (find _ _) as [k|] eqn:F; [|reflexivity].
  apply find_some in F as [Hin E%bytes_eqb_eq].
  destruct Hin as [<-|[<-|[<-|[]]]]; cbn [mk_mapped]; eexists _, o, p, f, s; repeat split; exact E.
Qed.

Lemma typed_gen k r : typed k (gen k r) = true.
Proof. destruct k; reflexivity. Qed.

Lemma classify_generated k r p f s : k <> KScript ->
  classify (SV6 (gen k r) p f s) = mk_mapped k (gen k r).
Proof. intros Hk. apply classify_typed; [exact Hk|apply typed_gen]. Qed.

Lemma v4_never_mapped ip p : classify (SV4 ip p) = MIp (SV4 ip p).
Proof. reflexivity. Qed.

(* inv_in is not a consequence of inv_find: an entry that an earlier one with the same key hides is
   in the list and is not found.  The final dump lists entries, so dump_k_inverse needs it. *)
Record inv (kd : kind) (m : amap) : Prop := {
  inv_find : forall k a, find_k k (addrs m) = Some a <-> find_a a (lookup m) = Some k;
  inv_in : forall k a, In (k, a) (addrs m) <-> In (a, k) (lookup m);
  inv_typed : forall k a, find_k k (addrs m) = Some a -> typed kd a = true
}.

Definition Inv (s : state) : Prop := forall kd, inv kd (sel kd s).

Lemma Inv_init : Inv init.
Proof. intros []; (split; [split; discriminate|reflexivity|discriminate]). Qed.

(* an answering get repeats a recorded pair or records one whose key and address are both new;
   the maps change at that pair only *)
Lemma get_answer kd m key cands m' a : inv kd m -> get kd m key cands = (m', Some a) ->
  typed kd a = true /\
  (find_k key (addrs m) = Some a /\ find_a a (lookup m) = Some key \/
   find_k key (addrs m) = None /\ find_a a (lookup m) = None) /\
  (forall k', find_k k' (addrs m') = if N.eqb key k' then Some a else find_k k' (addrs m)) /\
  (forall a', find_a a' (lookup m') = if bytes_eqb a a' then Some key else find_a a' (lookup m)).
Proof.
  intros [Hf _ Ht] Hg. unfold get in Hg.
  destruct (find_k key (addrs m)) as [a0|] eqn:Hk;
    [|destruct (first_fresh (lookup m) (map (gen kd) cands)) as [a0|] eqn:F; [|discriminate]];
    injection Hg as <- <-.
  - pose proof (proj1 (Hf _ _) Hk) as Ha. repeat split; eauto.
    + intros k'. destruct (N.eqb_spec key k') as [<-|_]; auto.
    + intros a'. destruct (bytes_eqb a0 a') eqn:Ea; [|reflexivity].
      apply bytes_eqb_eq in Ea. now subst a'.
  - apply first_fresh_spec in F as [Hin Hfr]. repeat split; auto.
    + apply in_map_iff in Hin as (r & <- & _). apply typed_gen.
    + intros k'. apply find_k_ins.
    + intros a'. apply find_a_ins.
Qed.

Lemma get_inv kd m key cands m' r : inv kd m -> get kd m key cands = (m', r) -> inv kd m'.
Proof.
  intros [Hf Hi Ht] Hg. unfold get in Hg.
  destruct (find_k key (addrs m)) as [a|] eqn:Hn;
    [|destruct (first_fresh (lookup m) (map (gen kd) cands)) as [a|] eqn:F];
    injection Hg as <- <-; try (split; assumption).
  apply first_fresh_spec in F as [Hin Hfr].
  split; cbn [addrs lookup]; intros k a'.
  - (* a pair of the old maps at the new key or at the new address contradicts freshness *)
    rewrite find_k_ins, find_a_ins.
    destruct (N.eqb_spec key k) as [<-|Hk];
      (destruct (bytes_eqb a a') eqn:Ea; [apply bytes_eqb_eq in Ea; subst a'|apply bytes_eqb_neq in Ea]);
      split; intros H; try apply Hf in H; congruence.
  - rewrite ins_k_fresh, ins_a_fresh by assumption. cbn [In].
    split; (intros [[= <- <-]|H]; [now left|right; apply Hi, H]).
  - rewrite find_k_ins. destruct (N.eqb key k); [intros [= <-]|apply Ht].
    apply in_map_iff in Hin as (r & <- & _). apply typed_gen.
Qed.

Lemma sel_upd kd s m kd' : sel kd' (upd kd s m) = if kind_eqb kd kd' then m else sel kd' s.
Proof. destruct kd, kd'; reflexivity. Qed.

Lemma step_Inv s o : Inv s -> Inv (fst (step s o)).
Proof.
  intros H. destruct o as [kd key cands|kd a|sa|sa]; cbn [step]; try exact H.
  destruct (get kd (sel kd s) key cands) as [m' [a|]] eqn:E; cbn [fst]; [|exact H].
  intros kd'. rewrite sel_upd. destruct (kind_eqb kd kd') eqn:Ek; [|apply H].
  apply kind_eqb_eq in Ek. subst kd'. exact (get_inv _ _ _ _ _ _ (H kd) E).
Qed.

Definition run_cons := mrun_cons step run (fun _ _ _ => eq_refl).

Lemma run_app a b s :
  run s (a ++ b) = (fst (run (fst (run s a)) b), snd (run s a) ++ snd (run (fst (run s a)) b)).
Proof.
  revert s. induction a as [|o r IH]; intros s.
  - cbn [app run fst snd]. now destruct (run s b).
  - cbn [app]. rewrite !run_cons. cbn [fst snd]. rewrite IH. reflexivity.
Qed.

Lemma run_length ops : forall s, length (snd (run s ops)) = length ops.
Proof.
  induction ops as [|o r IH]; intros s; [reflexivity|].
  rewrite run_cons. cbn [snd length]. now rewrite IH.
Qed.

Lemma run_state ops : forall s, fst (run s ops) = fold_left (fun s o => fst (step s o)) ops s.
Proof. induction ops as [|o r IH]; intros s; [reflexivity|]. rewrite run_cons. apply IH. Qed.

Lemma run_Inv ops : forall s, Inv s -> Inv (fst (run s ops)).
Proof. intros s. rewrite run_state. apply fold_left_inv. exact step_Inv. Qed.

Lemma run_after_Inv s o s1 x ops : Inv s -> step s o = (s1, x) -> Inv (fst (run s1 ops)).
Proof. intros H E. apply run_Inv. change s1 with (fst (s1, x)). rewrite <- E. now apply step_Inv. Qed.

Definition mapped_to (s : state) (kd : kind) (key : N) (a : bytes) : Prop :=
  find_k key (addrs (sel kd s)) = Some a.

(* the key side of get_answer, without the invariant: get_stable assumes none *)
Lemma get_extends kd m key cands m' r : get kd m key cands = (m', r) ->
  (forall k b, find_k k (addrs m) = Some b -> find_k k (addrs m') = Some b) /\
  (forall a, r = Some a -> find_k key (addrs m') = Some a).
Proof.
  unfold get. destruct (find_k key (addrs m)) as [a|] eqn:Hk;
    [|destruct (first_fresh (lookup m) (map (gen kd) cands)) as [a|]];
    intros [= <- <-]; (split; [auto|intros ? [= <-]]); auto; cbn [addrs].
  - intros k b H. rewrite find_k_ins. destruct (N.eqb_spec key k); [congruence|exact H].
  - now rewrite find_k_ins, N.eqb_refl.
Qed.

Lemma step_mono s o kd key a : mapped_to s kd key a -> mapped_to (fst (step s o)) kd key a.
Proof.
  unfold mapped_to. intros H. destruct o as [kd0 key0 cands|kd0 a0|sa|sa]; cbn [step]; try exact H.
  destruct (get kd0 (sel kd0 s) key0 cands) as [m' [a0|]] eqn:E; cbn [fst]; [|exact H].
  rewrite sel_upd. destruct (kind_eqb kd0 kd) eqn:Ek; [|exact H].
  apply kind_eqb_eq in Ek. subst kd0. exact (proj1 (get_extends _ _ _ _ _ _ E) _ _ H).
Qed.

Lemma run_mono ops : forall s kd key a, mapped_to s kd key a -> mapped_to (fst (run s ops)) kd key a.
Proof.
  intros s kd key a. rewrite run_state. apply (fold_left_inv _ (fun s => mapped_to s kd key a)).
  intros s' o. apply step_mono.
Qed.

Lemma get_result s kd key cands s' x :
  step s (OpGet kd key cands) = (s', RAddr x) ->
  exists a, x = private_socket_addr a /\ mapped_to s' kd key a.
Proof.
  cbn [step]. destruct (get kd (sel kd s) key cands) as [m' [a|]] eqn:E; [|discriminate].
  intros [= <- <-]. exists a. split; [reflexivity|].
  unfold mapped_to. rewrite sel_upd, kind_eqb_refl. exact (proj2 (get_extends _ _ _ _ _ _ E) _ eq_refl).
Qed.

Lemma get_of_mapped s kd key a cands : mapped_to s kd key a ->
  step s (OpGet kd key cands) = (upd kd s (sel kd s), RAddr (private_socket_addr a)).
Proof. unfold mapped_to. intros H. cbn [step]. unfold get. now rewrite H. Qed.

Lemma get_stable s kd key c1 s1 x ops c2 :
  step s (OpGet kd key c1) = (s1, RAddr x) ->
  snd (step (fst (run s1 ops)) (OpGet kd key c2)) = RAddr x.
Proof.
  intros H. apply get_result in H as (a & -> & Hm).
  apply (run_mono ops) in Hm. now rewrite (get_of_mapped _ _ _ _ c2 Hm).
Qed.

Lemma get_injective s kd k1 c1 s1 x ops k2 c2 :
  Inv s ->
  step s (OpGet kd k1 c1) = (s1, RAddr x) ->
  snd (step (fst (run s1 ops)) (OpGet kd k2 c2)) = RAddr x ->
  k1 = k2.
Proof.
  intros HI H1 H2. pose proof (run_after_Inv _ _ _ _ ops HI H1 kd) as HN.
  apply get_result in H1 as (a & -> & Hm). apply (run_mono ops), (inv_find _ _ HN) in Hm.
  cbn [step] in H2.
  destruct (get kd (sel kd (fst (run s1 ops))) k2 c2) as [m' [b|]] eqn:E; [|discriminate].
  injection H2 as ->.
  destruct (get_answer _ _ _ _ _ _ HN E) as (_ & [[_ Ha]|[_ Ha]] & _); congruence.
Qed.

Lemma lookup_after_get s kd key c s1 a ops :
  Inv s ->
  step s (OpGet kd key c) = (s1, RAddr (private_socket_addr a)) ->
  typed kd a = true /\ lookup_addr (sel kd (fst (run s1 ops))) a = Some key.
Proof.
  intros HI H1. pose proof (run_after_Inv _ _ _ _ ops HI H1 kd) as [Hf _ Ht].
  apply get_result in H1 as (a' & [= <-] & Hm). apply (run_mono ops) in Hm.
  split; [exact (Ht _ _ Hm)|now apply Hf].
Qed.

Lemma lookup_get s kd key c s1 a ops :
  Inv s ->
  step s (OpGet kd key c) = (s1, RAddr (private_socket_addr a)) ->
  snd (step (fst (run s1 ops)) (OpLookup kd a)) = RKey (Some key).
Proof.
  intros HI H1. destruct (lookup_after_get _ _ _ _ _ _ ops HI H1) as [Ht Hl].
  cbn [step snd]. now rewrite Ht, Hl.
Qed.

Lemma lookup_sound s kd a k c :
  Inv s -> snd (step s (OpLookup kd a)) = RKey (Some k) ->
  snd (step s (OpGet kd k c)) = RAddr (private_socket_addr a).
Proof.
  intros HI H. cbn [step snd] in H. destruct (typed kd a); [|discriminate]. injection H as H.
  apply (inv_find _ _ (HI kd)) in H. now rewrite (get_of_mapped _ _ _ _ c H).
Qed.

Lemma transport_get s kd key c s1 a ops p f sc :
  Inv s -> (kd = KRelay \/ kd = KCustom) ->
  step s (OpGet kd key c) = (s1, RAddr (private_socket_addr a)) ->
  to_transport_addr (fst (run s1 ops)) (SV6 a p f sc) =
    Some (match kd with KRelay => TRelay key | _ => TCustom key end).
Proof.
  intros HI Hk H1. destruct (lookup_after_get _ _ _ _ _ _ ops HI H1) as [Ht Hl].
  unfold to_transport_addr. pose proof (classify_typed kd a p f sc) as Hc.
  destruct Hk as [-> | ->]; rewrite Hc by (discriminate || exact Ht);
    cbn [mk_mapped]; cbn [sel] in Hl; now rewrite Hl.
Qed.

Lemma get_progress s kd key cands :
  (exists r, In r cands /\ find_a (gen kd r) (lookup (sel kd s)) = None) ->
  exists s' x, step s (OpGet kd key cands) = (s', RAddr x).
Proof.
  intros (r & Hin & Hf). cbn [step]. unfold get.
  destruct (find_k key (addrs (sel kd s))); [eauto|].
  destruct (first_fresh (lookup (sel kd s)) (map (gen kd) cands)) eqn:F; [eauto|].
  now apply (first_fresh_some _ _ _ (in_map (gen kd) _ _ Hin)) in F.
Qed.

Definition bijection (m : amap) : Prop :=
  (forall k a, find_k k (addrs m) = Some a <-> find_a a (lookup m) = Some k) /\
  (forall k1 k2 a, find_k k1 (addrs m) = Some a -> find_k k2 (addrs m) = Some a -> k1 = k2) /\
  (forall a1 a2 k, find_a a1 (lookup m) = Some k -> find_a a2 (lookup m) = Some k -> a1 = a2).

Lemma Inv_is_bijection s kd : Inv s -> bijection (sel kd s).
Proof.
  intros H. destruct (H kd) as [Hf _ _].
  split; [exact Hf|split]; intros ? ? ? H1 H2; apply Hf in H1, H2; congruence.
Qed.

Lemma inv_bijection ops : forall kd, bijection (sel kd (fst (run init ops))).
Proof. intros kd. apply Inv_is_bijection, run_Inv, Inv_init. Qed.

Inductive Merge {A} : list (list A) -> list A -> Prop :=
| Merge_nil ts : Forall (fun t => t = []) ts -> Merge ts []
| Merge_cons ts1 x t ts2 l :
    Merge (ts1 ++ t :: ts2) l -> Merge (ts1 ++ (x :: t) :: ts2) (x :: l).

Example merge_ex : Merge [[1; 2]; [3]] [1; 3; 2].
Proof.
  apply (Merge_cons [] 1 [2] [[3]]). apply (Merge_cons [[2]] 3 [] []).
  apply (Merge_cons [] 2 [] [[]]). apply Merge_nil. repeat constructor.
Qed.

(* inv_bijection speaks of every op list, so of every merge; that l is one is not needed *)
Lemma interleavings_bijection (threads : list (list op)) l :
  Merge threads l -> forall kd, bijection (sel kd (fst (run init l))).
Proof. intros _. apply inv_bijection. Qed.

Definition Sync (sn : seen) (s : state) : Prop :=
  (forall kd key, seen_key sn kd key = find_k key (addrs (sel kd s))) /\
  (forall kd a, seen_addr sn kd a = find_a a (lookup (sel kd s))).

Lemma Sync_init : Sync [] init.
Proof. split; intros []; reflexivity. Qed.

Lemma seen_key_cons kd0 key0 a0 sn kd key :
  seen_key ((kd0, key0, a0) :: sn) kd key =
  if kind_eqb kd0 kd && N.eqb key0 key then Some a0 else seen_key sn kd key.
Proof. unfold seen_key. cbn [find fst snd]. now destruct (kind_eqb kd0 kd && N.eqb key0 key). Qed.

Lemma seen_addr_cons kd0 key0 a0 sn kd a :
  seen_addr ((kd0, key0, a0) :: sn) kd a =
  if kind_eqb kd0 kd && bytes_eqb a0 a then Some key0 else seen_addr sn kd a.
Proof. unfold seen_addr. cbn [find fst snd]. now destruct (kind_eqb kd0 kd && bytes_eqb a0 a). Qed.

Lemma step_Sync sn s o : Inv s -> Sync sn s ->
  Sync (push_seen sn (o, snd (step s o))) (fst (step s o)).
Proof.
  intros HI [Hk Ha]. destruct o as [kd key cands|kd a|sa|sa]; cbn [step]; try (split; assumption).
  destruct (get kd (sel kd s) key cands) as [m' [a|]] eqn:E; cbn [fst snd push_seen]; [|split; assumption].
  destruct (get_answer _ _ _ _ _ _ (HI kd) E) as (_ & _ & Fk & Fa).
  cbn [octets_of private_socket_addr].
  (* the record and the maps change at the same pair, in the same way *)
  split; intros kd' x; rewrite ?seen_key_cons, ?seen_addr_cons, sel_upd, ?Hk, ?Ha;
    (destruct (kind_eqb kd kd') eqn:Ek; [apply kind_eqb_eq in Ek; subst kd'|reflexivity]);
    cbn [andb]; symmetry; [apply Fk|apply Fa].
Qed.

Lemma classify_event_ok sn sa : event_ok sn (OpClassify sa, RClass (classify sa)) = true.
Proof.
  cbn [event_ok]. destruct sa as [ip p|o p f s]; [apply mapped_eqb_refl|].
  rewrite classify_firstn. cbn [find existsb]. change prefix7 with prefix_of.
  (* the monitor evaluates the same three tests *)
  destruct (bytes_eqb _ (prefix_of KMixed)) eqn:E1; [|destruct (bytes_eqb _ (prefix_of KRelay)) eqn:E2;
    [|destruct (bytes_eqb _ (prefix_of KCustom)) eqn:E3]];
    cbn [mk_mapped kind_of_mapped mapped_octets orb negb];
    rewrite ?E1, ?E2, ?E3, ?bytes_eqb_refl, ?mapped_eqb_refl; reflexivity.
Qed.

Lemma step_event_ok sn s o : Inv s -> Sync sn s ->
  (forall kd key cands, o = OpGet kd key cands -> snd (step s o) <> RExhausted) ->
  event_ok sn (o, snd (step s o)) = true.
Proof.
  intros HI [Hk Ha] Hex.
  destruct o as [kd key cands|kd a|sa|sa]; cbn [step snd].
  - specialize (Hex kd key cands eq_refl). cbn [step] in Hex.
    destruct (get kd (sel kd s) key cands) as [m' [a|]] eqn:E; cbn [snd] in *; [|congruence].
    destruct (get_answer _ _ _ _ _ _ (HI kd) E) as (Ht & Hpre & _).
    cbn [event_ok octets_of private_socket_addr].
    rewrite Hk, Ha, sockaddr_eqb_refl.
    apply andb_true_intro. split.
    + destruct Hpre as [[-> ->]|[-> ->]]; now rewrite ?bytes_eqb_refl, ?N.eqb_refl.
    + (* the last clause: a typed address classifies as its own kind *)
      pose proof (classify_typed kd a MAPPED_PORT 0 0) as Hc. unfold private_socket_addr.
      destruct kd; [..|reflexivity]; rewrite Hc by (discriminate || exact Ht);
        cbn [mk_mapped kind_of_mapped mapped_octets opt_eqb]; rewrite kind_eqb_refl; apply bytes_eqb_refl.
  - cbn [event_ok]. destruct (typed kd a) eqn:Ht; [|reflexivity].
    rewrite Ha. apply opt_N_eqb_refl.
  - cbn [event_ok]. unfold to_transport_addr, lookup_addr.
    destruct (classify sa) as [o|o|o|a]; try reflexivity; rewrite Ha; cbn [sel];
      destruct (find_a o _); apply opt_taddr_eqb_refl.
  - apply classify_event_ok.
Qed.

Fixpoint fresh_enough (s : state) (ops : list op) : Prop :=
  match ops with
  | [] => True
  | o :: r => (forall kd key cands, o = OpGet kd key cands -> snd (step s o) <> RExhausted)
              /\ fresh_enough (fst (step s o)) r
  end.

Lemma fresh_ok_enough ops : forall s,
  forallb (fun x => negb (obs_eqb x RExhausted)) (snd (run s ops)) = true -> fresh_enough s ops.
Proof.
  induction ops as [|o r IH]; intros s H; [exact I|].
  rewrite run_cons in H. cbn [snd forallb] in H. apply andb_prop in H as [H1 H2].
  split; [|now apply IH].
  intros kd key cands _ E. rewrite E in H1. discriminate.
Qed.

Lemma run_trace_ok ops : forall sn s, Inv s -> Sync sn s -> fresh_enough s ops ->
  trace_ok sn (zip_obs ops (snd (run s ops))) = true.
Proof.
  induction ops as [|o r IH]; intros sn s HI HS HF; [reflexivity|]. destruct HF as [H1 H2].
  rewrite run_cons. cbn [snd zip_obs trace_ok].
  rewrite step_event_ok by assumption.
  apply IH; [now apply step_Inv|now apply step_Sync|exact H2].
Qed.

Lemma dump_sub_incl (a b : dump) : incl a b -> dump_sub a b = true.
Proof.
  intros H. apply forallb_forall. intros x Hx. apply existsb_exists. exists x. split; [auto|].
  unfold ent_eqb. now rewrite !N.eqb_refl, bytes_eqb_refl.
Qed.

Lemma dump_k_inverse kd m : inv kd m ->
  incl (fst (dump_k kd m)) (snd (dump_k kd m)) /\ incl (snd (dump_k kd m)) (fst (dump_k kd m)).
Proof.
  intros H. cbn [dump_k fst snd]. split; intros x [[u v] [<- Hin]]%in_map_iff;
    apply in_map_iff; exists (v, u); (split; [reflexivity|]); apply (inv_in _ _ H), Hin.
Qed.

Lemma dump_state_inverse s : Inv s ->
  let '(da, dl) := dump_state s in dumps_inverse da dl = true.
Proof.
  intros HI. unfold dump_state, dumps_inverse. cbn [map fst snd concat].
  apply andb_true_intro. split; apply dump_sub_incl;
    repeat (apply incl_app_app; [apply dump_k_inverse, HI|]); apply incl_refl.
Qed.

Lemma model_satisfies_monitor i : monitor i (model i) = true.
Proof.
  destruct i as [|ops]; [reflexivity|]. cbn [model].
  pose proof (run_Inv (map snd ops) init Inv_init) as HI.
  pose proof (run_length (map snd ops) init) as HL.
  pose proof (fun H => run_trace_ok (map snd ops) [] init Inv_init Sync_init (fresh_ok_enough _ _ H)) as HT.
  unfold monitor, fresh_ok.
  destruct (run init (map snd ops)) as [s xs]. cbn [fst snd] in *.
  apply dump_state_inverse in HI. destruct (dump_state s) as [da dl].
  destruct (forallb _ xs); [|reflexivity]. cbn [negb].
  now rewrite HI, HL, map_length, Nat.eqb_refl, HT.
Qed.

(* the record is searched from the newest entry, so this says that no two entries of one kind
   share a key or an address *)
Definition coherent (sn : seen) : Prop :=
  forall kd k a, In (kd, k, a) sn -> seen_key sn kd k = Some a /\ seen_addr sn kd a = Some k.

Lemma coherent_nil : coherent [].
Proof. intros ? ? ? []. Qed.

Lemma push_coherent sn e : coherent sn -> event_ok sn e = true -> coherent (push_seen sn e).
Proof.
  intros HC H. destruct e as [[kd key c|kd a|sa|sa] [sa'| | | | |]]; cbn [push_seen]; try exact HC.
  cbn [event_ok] in H. apply andb_prop in H as [[[H1 H2]%andb_prop _]%andb_prop _].
  intros kd' k a [[= <- <- <-]|Hin]; rewrite seen_key_cons, seen_addr_cons.
  - rewrite kind_eqb_refl, N.eqb_refl, bytes_eqb_refl. split; reflexivity.
  - destruct (HC _ _ _ Hin) as [Gk Ga]. rewrite Gk, Ga.
    destruct (kind_eqb kd kd') eqn:Ek; [apply kind_eqb_eq in Ek; subst kd'|auto]. cbn [andb]. split.
    + destruct (N.eqb_spec key k) as [->|_]; [|reflexivity].
      rewrite Gk in H1. now apply bytes_eqb_eq in H1 as ->.
    + destruct (bytes_eqb (octets_of sa') a) eqn:Ea; [|reflexivity].
      apply bytes_eqb_eq in Ea. subst a. rewrite Ga in H2. now apply N.eqb_eq in H2 as ->.
Qed.

Lemma trace_coherent t : forall sn, coherent sn -> trace_ok sn t = true ->
  coherent (fold_left push_seen t sn).
Proof.
  induction t as [|e t IH]; intros sn HC H; [exact HC|].
  cbn [trace_ok fold_left] in *. apply andb_prop in H as [H1 H2].
  apply IH; [now apply push_coherent|exact H2].
Qed.

Lemma trace_ok_app sn t1 t2 : trace_ok sn (t1 ++ t2) = true ->
  trace_ok sn t1 = true /\ trace_ok (fold_left push_seen t1 sn) t2 = true.
Proof.
  revert sn. induction t1 as [|e t1 IH]; intros sn H; [auto|].
  cbn [app trace_ok fold_left] in *. apply andb_prop in H as [H1 H2].
  destruct (IH _ H2) as [A B]. rewrite H1, A. auto.
Qed.

Lemma push_seen_mono sn e x : In x sn -> In x (push_seen sn e).
Proof. destruct e as [[] []]; cbn [push_seen]; auto using in_cons. Qed.

Lemma trace_ok_get sn t kd key c sa : trace_ok sn t = true -> In (OpGet kd key c, RAddr sa) t ->
  sa = private_socket_addr (octets_of sa) /\ In (kd, key, octets_of sa) (fold_left push_seen t sn).
Proof.
  intros H Hin. apply in_split in Hin as (t1 & t2 & ->).
  apply trace_ok_app in H as [_ H]. cbn [trace_ok event_ok] in H.
  apply andb_prop in H as [[[_ H]%andb_prop _]%andb_prop _]. split; [now apply sockaddr_eqb_eq|].
  rewrite fold_left_app. cbn [fold_left push_seen].
  apply (fold_left_inv push_seen (fun sn => In _ sn)); [|now left].
  intros sn' e. apply push_seen_mono.
Qed.

Lemma monitor_sound_gets t kd k1 c1 x1 k2 c2 x2 :
  trace_ok [] t = true ->
  In (OpGet kd k1 c1, RAddr x1) t -> In (OpGet kd k2 c2, RAddr x2) t ->
  (k1 = k2 <-> x1 = x2).
Proof.
  intros H I1 I2. pose proof (trace_coherent t [] coherent_nil H) as HC.
  destruct (trace_ok_get _ _ _ _ _ _ H I1) as [P1 [K1 A1]%HC].
  destruct (trace_ok_get _ _ _ _ _ _ H I2) as [P2 [K2 A2]%HC].
  split; intros E.
  - rewrite P1, P2. f_equal. congruence.
  - congruence.
Qed.

Lemma monitor_sound_lookup t1 t2 kd key c a r :
  trace_ok [] (t1 ++ (OpLookup kd a, RKey r) :: t2) = true ->
  In (OpGet kd key c, RAddr (private_socket_addr a)) t1 ->
  r = Some key.
Proof.
  intros H Hin. apply trace_ok_app in H as [Ht1 H].
  cbn [trace_ok event_ok] in H. apply andb_prop in H as [[_ H]%andb_prop _].
  destruct (trace_ok_get _ _ _ _ _ _ Ht1 Hin) as [_ [_ A]%(trace_coherent t1 [] coherent_nil Ht1)].
  cbn [octets_of private_socket_addr] in A. rewrite A in H. now apply opt_N_eqb_eq in H.
Qed.

Definition r1 : bytes := [1;2;3;4;5;6;7;8].
Definition r2 : bytes := [9;9;9;9;9;9;9;9].

Example ex_run :
  snd (run init [OpGet KRelay 4 [r1]; OpGet KRelay 5 [r1; r2]; OpGet KRelay 4 [r2];
                 OpLookup KRelay (gen KRelay r2); OpTransport (SV6 (gen KRelay r1) 7 0 0);
                 OpLookup KMixed (gen KRelay r1)])
  = [RAddr (private_socket_addr (gen KRelay r1)); RAddr (private_socket_addr (gen KRelay r2));
     RAddr (private_socket_addr (gen KRelay r1)); RKey (Some 5); RTransport (Some (TRelay 4));
     RNotTyped].
Proof. vm_compute. reflexivity. Qed.

Example ex_fresh_enough :
  fresh_enough init [OpGet KRelay 4 [r1]; OpGet KRelay 5 [r1; r2]; OpGet KScript 1 [r1]].
Proof. apply fresh_ok_enough. reflexivity. Qed.

Example ex_exhausted :
  snd (run init [OpGet KScript 1 [r1]; OpGet KScript 2 [r1; r1]]) =
  [RAddr (private_socket_addr r1); RExhausted].
Proof. vm_compute. reflexivity. Qed.

Example ex_default_fake_is_mixed :
  classify (SV6 DEFAULT_FAKE_OCTETS MAPPED_PORT 0 0) = MMixed DEFAULT_FAKE_OCTETS.
Proof. vm_compute. reflexivity. Qed.

Example ex_monitor_rejects_unstable :
  monitor (IOps [(0, OpGet KScript 1 [r1]); (1, OpGet KScript 1 [r2])])
          (OOps [RAddr (private_socket_addr r1); RAddr (private_socket_addr r2)] [] []) = false.
Proof. vm_compute. reflexivity. Qed.

Example ex_monitor_rejects_shared :
  monitor (IOps [(0, OpGet KScript 1 [r1]); (1, OpGet KScript 2 [r1; r2])])
          (OOps [RAddr (private_socket_addr r1); RAddr (private_socket_addr r1)] [] []) = false.
Proof. vm_compute. reflexivity. Qed.
