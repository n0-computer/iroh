(* C07 — the guard-ownership transition system (Model/C07.v).  The invariant ties the log to
   the connections one by one: what the log holds for a connection's id is what the
   connection's state says has happened to it ([past]). *)
From V Require Import Lib.Base Lib.Lists Lib.Trace Model.C07.
From Coq Require Import Lia Sorted.
Import C07.
Open Scope N_scope.

Definition obs_id (o : obs) : N := match o with Connect id _ => id | Disconnect id => id end.

Lemma obs_eqb_iff a b : obs_eqb a b = true <-> a = b.
Proof.
  destruct a as [i x|i], b as [j y|j]; cbn;
    rewrite ?andb_true_iff, ?N.eqb_eq, ?Bool.eqb_true_iff; intuition congruence.
Qed.

Lemma obs_eqb_refl a : obs_eqb a a = true.
Proof. now apply obs_eqb_iff. Qed.

Lemma obs_eqb_id a b : obs_id a <> obs_id b -> obs_eqb a b = false.
Proof.
  intros H. destruct (obs_eqb a b) eqn:E; [|reflexivity]. apply obs_eqb_iff in E. subst. congruence.
Qed.

Lemma cnt_pos_in o l : 0 < cnt o l <-> In o l.
Proof.
  induction l as [|x l IH]; cbn [cnt In]; [split; [lia|tauto]|].
  destruct (obs_eqb o x) eqn:E.
  - apply obs_eqb_iff in E. subst. split; [auto|lia].
  - rewrite <- IH. split; [right; lia|].
    intros [->|H]; [rewrite obs_eqb_refl in E; discriminate | lia].
Qed.

Definition admitted (c : cstate) : bool :=
  match c with Guarded _ | Accepting _ | Running _ | Unregistering _ | ClosedAdmitted _ => true | _ => false end.

(* what the policy has been told on behalf of a connection that is in state [c], newest first *)
Definition past (c : cstate) : list obs :=
  match c with
  | Idle | Rejected | HasId _ | ClosedUnasked _ => []
  | Denying id | ClosedDenied id => [Connect id false]
  | Guarded id | Accepting id | Running id | Unregistering id => [Connect id true]
  | ClosedAdmitted id => [Disconnect id; Connect id true]
  end.

Lemma past_owner c o : cnt o (past c) = 0 \/ id_of c = Some (obs_id o).
Proof.
  destruct (N.eq_dec (cnt o (past c)) 0) as [|NZ]; [now left|right].
  assert (I : In o (past c)) by (apply cnt_pos_in; lia).
  destruct c; cbn in I; intuition (subst; reflexivity).
Qed.

Lemma past_counts c id : id_of c = Some id ->
  cnt (Connect id true) (past c) = (if admitted c then 1 else 0) /\
  cnt (Connect id false) (past c) = (if denied c then 1 else 0) /\
  cnt (Disconnect id) (past c) = (match c with ClosedAdmitted _ => 1 | _ => 0 end).
Proof. destruct c; cbn; intros [= <-]; rewrite ?N.eqb_refl; auto. Qed.

Lemma upd_same f k c : upd f k c k = c.
Proof. unfold upd. now rewrite Nat.eqb_refl. Qed.
Lemma upd_other f k c j : j <> k -> upd f k c j = f j.
Proof. intros H. unfold upd. now rewrite (proj2 (Nat.eqb_neq j k) H). Qed.
Lemma id_of_upd f k c : id_of c = id_of (f k) -> forall j, id_of (upd f k c j) = id_of (f j).
Proof. intros E j. unfold upd. destruct (Nat.eqb_spec j k) as [->|]; auto. Qed.

(* what a step of connection [k] can do: draw its id from the counter, or go on under the id it
   has, in which case what is appended to the log is what is appended to the connection's past *)
Inductive moved (s : st) (k : nat) : st -> Prop :=
| MDraw : conns s k = Idle ->
    moved s k (mkSt (next s + 1) (log s) (upd (conns s) k (HasId (next s))))
| MKeep c l : id_of c = id_of (conns s k) ->
    (denied (conns s k) = true -> denied c = true) ->
    (forall o, cnt o l + cnt o (past (conns s k)) = cnt o (log s) + cnt o (past c)) ->
    moved s k (mkSt (next s) l (upd (conns s) k c)).

Lemma step_moved s e s' : step s e = Some s' -> moved s (conn_of e) s'.
Proof.
  unfold step. cbv zeta. generalize (conn_of e) as k. intros k.
  (* of the enabled steps only [EHandshake _ true] on [Idle] draws an id: the first constructor of
     [ev] at the first of [cstate], hence the first goal left *)
  destruct e as [? [|]|? [|]|? ?|? [|]|?|? ?|?|?]; destruct (conns s k) eqn:C; try discriminate;
    intros [= <-]; [now apply MDraw|apply MKeep; rewrite C; [reflexivity|easy|intros o; cbn [past cnt]; lia]..].
Qed.

(* [I1] with [I3]: what the log holds for an id is the past of the connection that has it, and
   nothing is logged under an id that no connection has.  [I0] (ids lie below the counter) and [I2]
   (no id twice) make a draw fresh and the owner unique. *)
Record Inv (s : st) : Prop := mkInv {
  I0 : forall k id, id_of (conns s k) = Some id -> id < next s;
  I1 : forall k o, id_of (conns s k) = Some (obs_id o) -> cnt o (log s) = cnt o (past (conns s k));
  I2 : forall j k id, j <> k -> id_of (conns s j) = Some id -> id_of (conns s k) <> Some id;
  I3 : forall o, 0 < cnt o (log s) -> exists k, id_of (conns s k) = Some (obs_id o)
}.

Lemma inv_init n0 : Inv (init n0).
Proof. constructor; cbn; try discriminate; intros; lia. Qed.

Lemma inv_moved s k s' : Inv s -> moved s k s' -> Inv s'.
Proof.
  intros [H0 H1 H2 H3] [C|c l E _ P]; constructor; cbn [next log conns].
  (* a draw: the id is above every owner's (I0), so nothing is logged under it yet (I3) *)
  - intros j id. destruct (Nat.eq_dec j k) as [->|J]; [rewrite upd_same|rewrite upd_other by exact J].
    + intros [= <-]. lia.
    + intros Hj. apply H0 in Hj. lia.
  - intros j o. destruct (Nat.eq_dec j k) as [->|J]; [rewrite upd_same|rewrite upd_other by exact J; apply H1].
    intros [= Ho]. destruct (N.eq_dec (cnt o (log s)) 0) as [|NZ]; [assumption|].
    destruct (H3 o) as [i Hi]; [lia|]. apply H0 in Hi. lia.
  - intros i j id IJ. destruct (Nat.eq_dec i k) as [->|I]; destruct (Nat.eq_dec j k) as [->|J];
      try contradiction; rewrite ?upd_same, ?upd_other by assumption.
    + intros [= <-] Hj. apply H0 in Hj. lia.
    + intros Hi [= <-]. apply H0 in Hi. lia.
    + exact (H2 i j id IJ).
  - intros o Po. destruct (H3 o Po) as [j Hj]. exists j. rewrite upd_other; [exact Hj|].
    intros ->. rewrite C in Hj. discriminate.
  (* the ids stay as they are *)
  - intros j id. rewrite (id_of_upd _ _ _ E). apply H0.
  - intros j o. rewrite (id_of_upd _ _ _ E). intros Hj. specialize (P o).
    destruct (Nat.eq_dec j k) as [->|J]; [rewrite upd_same|rewrite upd_other by exact J].
    + rewrite (H1 k o Hj) in P. lia.
    + (* k's id is not j's: [o] is in neither of k's pasts *)
      rewrite <- (H1 j o Hj).
      destruct (past_owner (conns s k) o) as [Q|Q]; [|elim (H2 j k _ J Hj Q)].
      destruct (past_owner c o) as [Q'|Q']; [lia|]. rewrite E in Q'. elim (H2 j k _ J Hj Q').
  - intros i j id. rewrite !(id_of_upd _ _ _ E). apply H2.
  - intros o Po. specialize (P o). destruct (past_owner c o) as [Q|Q].
    + destruct (H3 o) as [j Hj]; [lia|]. exists j. now rewrite (id_of_upd _ _ _ E).
    + exists k. now rewrite upd_same.
Qed.

Definition reachable (s : st) : Prop := exists n0 tr, run (init n0) tr = Some s.

Lemma run_moved (P : st -> Prop) : (forall s k s', P s -> moved s k s' -> P s') ->
  forall tr s s', P s -> run s tr = Some s' -> P s'.
Proof. intros H. apply (orun_inv step P). eauto using step_moved. Qed.

Lemma reachable_inv s : reachable s -> Inv s.
Proof. intros (n0 & tr & R). exact (run_moved Inv inv_moved tr _ s (inv_init n0) R). Qed.

Lemma reachable_run s tr s' : reachable s -> run s tr = Some s' -> reachable s'.
Proof. intros (n0 & t0 & R0) R. exists n0, (t0 ++ tr). change run with (orun step) in *. now rewrite orun_app, R0. Qed.

(* exactly once: the counts of on_connect / on_disconnect for a connection's id
   are a function of its state alone *)
Theorem exactly_once s : reachable s -> forall k id,
  id_of (conns s k) = Some id ->
  cnt (Connect id true) (log s) = (if admitted (conns s k) then 1 else 0) /\
  cnt (Connect id false) (log s) = (if denied (conns s k) then 1 else 0) /\
  cntD id (log s) = (match conns s k with ClosedAdmitted _ => 1 | _ => 0 end).
Proof.
  intros R k id H. apply reachable_inv in R. unfold cntD.
  rewrite (I1 s R k (Connect id true) H), (I1 s R k (Connect id false) H), (I1 s R k (Disconnect id) H).
  exact (past_counts _ id H).
Qed.

(* for every id whatsoever: at most one on_connect, at most one on_disconnect, and
   a disconnect only after an Allow *)
Theorem at_most_once s : reachable s -> forall id,
  cntC id (log s) <= 1 /\ cntD id (log s) <= cnt (Connect id true) (log s).
Proof.
  intros R id. unfold cntC.
  assert (OWN : forall o, obs_id o = id -> cnt o (log s) = 0 \/
            cnt (Connect id true) (log s) + cnt (Connect id false) (log s) <= 1 /\
            cntD id (log s) <= cnt (Connect id true) (log s)).
  { intros o <-. destruct (N.eq_dec (cnt o (log s)) 0) as [|NZ]; [now left|right].
    destruct (I3 s (reachable_inv s R) o) as [k Hk]; [lia|].
    destruct (exactly_once s R k _ Hk) as (-> & -> & ->). clear. destruct (conns s k); cbn; lia. }
  destruct (OWN (Connect id true) eq_refl) as [A|]; [|assumption].
  destruct (OWN (Connect id false) eq_refl) as [B|]; [|assumption].
  destruct (OWN (Disconnect id) eq_refl) as [D|]; [|assumption].
  unfold cntD. lia.
Qed.

Lemma denied_run k i : forall tr s s', denied (conns s k) = true /\ id_of (conns s k) = i ->
  run s tr = Some s' -> denied (conns s' k) = true /\ id_of (conns s' k) = i.
Proof.
  apply run_moved. intros s j s' [D I] [C|c l E Dk _]; cbn [conns];
    (destruct (Nat.eq_dec k j) as [->|N]; [rewrite upd_same|now rewrite upd_other]).
  - rewrite C in D. discriminate.
  - split; [auto|congruence].
Qed.

(* a denied connection stays denied whatever happens next, and never gets a disconnect *)
Theorem deny_never_registers s k : reachable s -> denied (conns s k) = true ->
  forall tr s', run s tr = Some s' ->
    denied (conns s' k) = true /\ id_of (conns s' k) = id_of (conns s k) /\
    forall id, id_of (conns s k) = Some id -> cntD id (log s') = 0.
Proof.
  intros R D tr s' RUN.
  destruct (denied_run k _ tr s s' (conj D eq_refl) RUN) as [D' I']. repeat split; [exact D' | exact I' |].
  intros id H. rewrite <- I' in H.
  destruct (exactly_once s' (reachable_run s tr s' R RUN) k id H) as (_ & _ & ->).
  destruct (conns s' k); try discriminate; reflexivity.
Qed.

(* ids are never reused; as u64 values, as long as fewer than 2^64 ids were drawn *)
Theorem ids_fresh s : reachable s -> forall j k a b,
  j <> k -> id_of (conns s j) = Some a -> id_of (conns s k) = Some b ->
  a <> b /\ (next s <= 2 ^ 64 -> a mod 2 ^ 64 <> b mod 2 ^ 64).
Proof.
  intros R j k a b JK Ha Hb. pose proof (reachable_inv _ R) as [H0 _ H2 _].
  assert (AB : a <> b) by (intros ->; exact (H2 j k b JK Ha Hb)).
  split; [exact AB|]. intros L. apply H0 in Ha, Hb.
  rewrite !N.mod_small by (eapply N.lt_le_trans; eassumption). exact AB.
Qed.

(* every connection that is not finished can still make a step (no stuck state holds a guard) *)
Theorem progress s k : final (conns s k) = false -> exists s', step s (EDropTask k) = Some s'.
Proof. unfold step. cbn [conn_of]. destruct (conns s k); try discriminate; eauto. Qed.

Lemma len_filter_app {A} (p : A -> bool) a b : len (filter p (a ++ b)) = len (filter p a) + len (filter p b).
Proof. unfold len. rewrite filter_app, app_length. lia. Qed.

Lemma ocnt_conv id l : ocntC id (conv l) = cntC id l /\ ocntD id (conv l) = cntD id l.
Proof.
  unfold ocntC, ocntD, cntC, cntD, conv.
  induction l as [|o l IH]; [split; reflexivity|].
  cbn [rev cnt]. rewrite map_app, !len_filter_app. destruct IH as [-> ->].
  (* [cbn] leaves the tests [1 =? 1], [2 =? 1] of [ocntC] and [ocntD] standing, [N.eqb] being
     [simpl never] (Lib/Base.v): [cbv] decides them *)
  destruct o as [i [|]|i]; cbn [map filter obs_eqb]; rewrite ?(N.eqb_sym id i);
    destruct (i =? id); cbv [N.eqb Pos.eqb]; cbn; lia.
Qed.

Definition settled (s : st) : Prop := forall k, final (conns s k) = true \/ conns s k = Idle.

Theorem settled_monitor s : reachable s -> settled s -> monitor_o (conv (log s)) = true.
Proof.
  intros R ST. unfold monitor_o. apply forallb_forall. intros e He.
  unfold conv in He. apply in_map_iff in He as (o & <- & Io). apply in_rev, cnt_pos_in in Io.
  destruct (I3 s (reachable_inv s R) o Io) as [k Hk].
  destruct (exactly_once s R k _ Hk) as (A & B & D).
  destruct (ST k) as [F|F]; [|rewrite F in Hk; discriminate].
  destruct o as [id a|id]; cbn [obs_id] in *.
  - destruct (ocnt_conv id (log s)) as [-> ->]. unfold cntC. rewrite A, B, D.
    destruct a; [rewrite A in Io | rewrite B in Io]; clear -F Io;
      destruct (conns s k); try discriminate F; cbn in *; try lia; reflexivity.
  - apply existsb_exists. exists (1, id, true). rewrite !N.eqb_refl. split; [|reflexivity].
    unfold conv. apply in_map_iff. exists (Connect id true). split; [reflexivity|].
    apply -> in_rev. apply cnt_pos_in. unfold cntD in D. rewrite A. rewrite D in Io. clear -F Io.
    destruct (conns s k); try discriminate F; cbn in *; lia.
Qed.

Lemma canon_conn_run s k sp : conns s k = Idle ->
  exists s', run s (canon_conn k sp) = Some s' /\ final (conns s' k) = true /\
             forall j, j <> k -> conns s' j = conns s j.
Proof.
  intros H. unfold canon_conn.
  destruct (sp_auth sp =? 0); [|destruct (sp_allow sp)];
    cbn [run step conn_of conns next log]; rewrite ?H;
    repeat (cbn [run step conn_of conns next log]; rewrite ?upd_same);
    eexists; (split; [reflexivity|]); cbn [conns]; rewrite upd_same;
    (split; [reflexivity|]); intros j J; now rewrite !upd_other.
Qed.

Lemma canon_settles i : forall k s s',
  settled s -> (forall j, (k <= j)%nat -> conns s j = Idle) ->
  run s (canon k i) = Some s' -> settled s'.
Proof.
  induction i as [|sp i IH]; intros k s s' ST HI R; cbn [canon run] in R.
  - now injection R as <-.
  - change run with (orun step) in R. rewrite orun_app in R.
    destruct (canon_conn_run s k sp (HI k (Nat.le_refl k))) as (s1 & R1 & F1 & O1).
    change run with (orun step) in R1. rewrite R1 in R. apply (IH (S k) s1 s'); [| | exact R].
    + intros j. destruct (Nat.eq_dec j k) as [->|N]; [auto|]. rewrite O1 by exact N. apply ST.
    + intros j J. rewrite O1 by lia. apply HI. lia.
Qed.

Theorem model_scen_satisfies_monitor : forall i, monitor_o (model_scen i) = true.
Proof.
  intros i. unfold model_scen. destruct (run (init 0) (canon 0 i)) as [s|] eqn:R; [|reflexivity].
  apply settled_monitor.
  - exists 0, (canon 0 i). exact R.
  - now apply (canon_settles i 0 (init 0)); [right| |].
Qed.

(* the allocation step of the transition system: on an idle connection an accepted handshake takes
   the counter's value as the id and adds one to the counter, which is what [astep] does *)
Lemma astep_is_step s k : conns s k = Idle ->
  step s (EHandshake k true) = Some (mkSt (next s + 1) (log s) (upd (conns s) k (HasId (next s)))).
Proof. intros H. unfold step. cbn [conn_of]. rewrite H. reflexivity. Qed.

Lemma nodup_concat_map (f : nat -> list N) ts : NoDup ts -> (forall t, NoDup (f t)) ->
  (forall t u x, t <> u -> In x (f t) -> In x (f u) -> False) -> NoDup (concat (map f ts)).
Proof.
  intros Nt Nf D. induction Nt as [|t ts N1 N2 IH]; cbn; [constructor|].
  apply NoDup_app_iff. split; [apply Nf|]. split; [exact IH|].
  intros x I1 I2. apply in_concat in I2 as (l & Il & Ix). apply in_map_iff in Il as (u & <- & Iu).
  apply (D t u x); [intros ->; contradiction|exact I1|exact Ix].
Qed.

Lemma incr_sorted l : StronglySorted N.lt l -> incr l = true.
Proof.
  induction 1 as [|a l _ IH Ha]; [reflexivity|]. destruct l as [|b l]; [reflexivity|].
  change ((a <? b) && incr (b :: l) = true). rewrite IH, andb_true_r. apply N.ltb_lt. exact (Forall_inv Ha).
Qed.

Record AInv (n0 : N) (s : ast) : Prop := {
  ai_bound : forall t x, In x (aseq s t) -> n0 < x < anext s;
  ai_next : n0 < anext s;
  ai_incr : forall t, StronglySorted N.lt (aseq s t);
  ai_disj : forall t u x, t <> u -> In x (aseq s t) -> In x (aseq s u) -> False }.

(* the id a draw hands out is above everything drawn before *)
Lemma ainv_step n0 s t : AInv n0 s -> AInv n0 (astep s t).
Proof.
  intros [B Nx I X].
  assert (F : forall u, ~ In (anext s) (aseq s u)) by (intros u H; apply B in H; lia).
  split; cbn [astep anext aseq].
  - intros u x. destruct (Nat.eqb u t).
    + rewrite in_app_iff. intros [H|[<-|[]]]; [apply B in H|]; lia.
    + intros H. apply B in H. lia.
  - lia.
  - intros u. destruct (Nat.eqb u t); [|apply I]. apply sorted_snoc; [apply I|]. intros y H. apply B in H. lia.
  - intros u v x UV. destruct (Nat.eqb u t) eqn:Eu, (Nat.eqb v t) eqn:Ev.
    + apply Nat.eqb_eq in Eu, Ev. congruence.
    + rewrite in_app_iff. intros [H|[<-|[]]] H2; [exact (X u v x UV H H2)|exact (F v H2)].
    + rewrite in_app_iff. intros H [H2|[<-|[]]]; [exact (X u v x UV H H2)|exact (F u H)].
    + apply X. exact UV.
Qed.

Lemma ainv_run n0 sched : forall s, AInv n0 s -> AInv n0 (arun s sched).
Proof. induction sched as [|t r IH]; intros s H; [exact H|]. apply IH, ainv_step, H. Qed.

Lemma ainv_init n0 : AInv n0 (mkA (n0 + 1) (fun _ => [])).
Proof. split; cbn; try tauto; try lia; constructor. Qed.

(* under every interleaving of atomic allocation steps, from every counter value, for any number
   of threads: no id is handed out twice and every thread's ids increase *)
Theorem alloc_any_schedule n0 threads sched :
  match aout n0 threads sched with OAlloc b a seqs => monitor_alloc b a seqs = true | _ => False end.
Proof.
  unfold aout. pose proof (ainv_run n0 sched _ (ainv_init n0)) as H.
  set (s := arun _ sched) in *. destruct H as [B Nx I X].
  unfold monitor_alloc. apply andb_true_iff. split.
  - apply forallb_forall. intros q Iq. apply in_map_iff in Iq as (t & <- & _). apply incr_sorted, I.
  - apply nodupb_iff.
    assert (C : forall x, In x (concat (map (aseq s) (seq 0 threads))) -> n0 < x < anext s).
    { intros x Ix. apply in_concat in Ix as (l & Il & Ix). apply in_map_iff in Il as (t & <- & _). exact (B t x Ix). }
    constructor; [|constructor].
    + cbn. intros [E|H]; [lia|]. apply C in H. lia.
    + intros H. apply C in H. lia.
    + apply nodup_concat_map; [apply seq_NoDup|intros t; apply sorted_NoDup, I|exact X].
Qed.

Theorem monitor_alloc_spec b a seqs : monitor_alloc b a seqs = true <->
  NoDup (b :: a :: concat seqs) /\ forall q, In q seqs -> incr q = true.
Proof.
  eapply iff_trans; [|apply and_comm].
  apply andb_iff; [apply forallb_forall|apply nodupb_iff].
Qed.

Theorem model_satisfies_monitor : forall i, monitor i (model i) = true.
Proof.
  intros [l|threads per]; cbn [model].
  - apply model_scen_satisfies_monitor.
  - pose proof (alloc_any_schedule 0 (N.to_nat threads) (canon_sched (N.to_nat threads) (N.to_nat per))) as H.
    destruct (aout 0 _ _); [contradiction|exact H].
Qed.

(* two connections interleaved; the first is admitted and its confirmation write fails,
   the second is admitted, registered, and its task is aborted: one disconnect each *)
Example ex_interleaved :
  exists s, run (init 7)
    [EHandshake 0 true; EHandshake 1 true; EOnConnect 1 true; EOnConnect 0 true;
     EConfirmWrite 0 false; EConfirmWrite 1 true; ERegister 1; EDropTask 1] = Some s /\
  conns s 0 = ClosedAdmitted 7 /\ conns s 1 = ClosedAdmitted 8 /\
  log s = [Disconnect 8; Disconnect 7; Connect 7 true; Connect 8 true].
Proof. eexists. vm_compute. repeat split. Qed.

Example ex_denied :
  exists s, run (init 0) [EHandshake 3 true; EOnConnect 3 false; EDenyWrite 3 false] = Some s /\
  conns s 3 = ClosedDenied 0 /\ log s = [Connect 0 false].
Proof. eexists. vm_compute. repeat split. Qed.

Example ex_model : model (IScen [mkSpec 1 true; mkSpec 0 true; mkSpec 2 false]) =
  OLog [(1, 0, true); (2, 0, false); (1, 1, false)].
Proof. vm_compute. reflexivity. Qed.

Example ex_alloc : aout 10 3 [0; 1; 0; 2; 2; 1]%nat = (OAlloc 10 17 [[11; 13]; [12; 16]; [14; 15]]).
Proof. vm_compute. reflexivity. Qed.
Example ex_alloc_model : model (IAlloc 2 3) = (OAlloc 0 7 [[1; 2; 3]; [4; 5; 6]]) /\ agree (IAlloc 2 3) (model (IAlloc 2 3)) = true.
Proof. vm_compute. split; reflexivity. Qed.
(* what a load / store allocator can produce (two threads read the same counter value): rejected *)
Example ex_alloc_dup : monitor (IAlloc 2 2) (OAlloc 0 4 [[1; 2]; [1; 3]]) = false /\ agree (IAlloc 2 2) (OAlloc 0 4 [[1; 2]; [1; 3]]) = false.
Proof. vm_compute. split; reflexivity. Qed.
