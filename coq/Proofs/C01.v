(* C01 — TLS name / verifier (Model/C01.v): every acceptance (name decoding, DER parsing,
   signature and certificate checks) is inverted to the shape of the accepted input, and the
   handshake theorems combine the inversions. *)
From V Require Import Lib.Base Lib.Lists Lib.BaseN Model.C01.
From Coq Require Import PeanoNat.
From V Require Import Lib.LiaBool.
From V Require Proofs.C12.
Import C01.
Open Scope N_scope.

Lemma B32_ok : codec_ok BASE32_DNSSEC = true.
Proof. reflexivity. Qed.

Lemma bytes_eqb_true_iff x y : bytes_eqb x y = true <-> x = y.
Proof. apply bytes_eqb_iff. Qed.

(* both model str::split at a one-byte separator *)
Lemma split_dot_on s : split_dot s = Model.C12.C12.split_on DOT s.
Proof. induction s as [|c r IH]; cbn [split_dot Model.C12.C12.split_on]; now rewrite ?IH. Qed.

Lemma split_dot_app l r :
  Forall (fun c => c <> DOT) l -> split_dot (l ++ DOT :: r) = l :: split_dot r.
Proof.
  induction 1 as [|c l Hc _ IH]; cbn [app split_dot].
  - now rewrite N.eqb_refl.
  - apply N.eqb_neq in Hc. rewrite Hc, IH. reflexivity.
Qed.

Lemma encode_no_dot bs : Forall (fun c => c <> DOT) (b32_encode bs).
Proof.
  pose proof (encode_forall (fun c => negb (c =? DOT)) BASE32_DNSSEC bs eq_refl) as H.
  eapply Forall_impl; [|exact H]. cbn beta. intros c Hc. lia.
Qed.

Lemma split_name_encode bs :
  split_dot (b32_encode bs ++ SUFFIX) = [b32_encode bs; IROH; INVALID].
Proof.
  change SUFFIX with (DOT :: str_bytes "iroh.invalid").
  rewrite split_dot_app by apply encode_no_dot. reflexivity.
Qed.

Lemma take_value_inv t n r t' v r' :
  take_value t n r = Some (t', v, r') ->
  t' = t /\ r = v ++ r' /\ len v = n.
Proof.
  unfold take_value.
  destruct (65535 <=? n); [discriminate|].
  destruct (len r <? n) eqn:E; [discriminate|].
  intros [= <- <- <-]. rewrite len_firstn, firstn_skipn, N2Nat.id.
  repeat split. apply N.min_l, N.ltb_ge, E.
Qed.

(* a long form announces the length [c] and is refused when [small], a test that every [c] below
   128 passes in each of the four forms: so a value shorter than that comes in the short form *)
Lemma long_form_inv (small : bool) tag c r' t v r :
  (if small then None else take_value tag c r') = Some (t, v, r) -> small = false /\ len v = c.
Proof.
  destruct small; [discriminate|]. intros H. apply take_value_inv in H as (_ & _ & H). auto.
Qed.

Lemma read_tlv_short l t v r :
  read_tlv l = Some (t, v, r) -> len v < 128 -> l = t :: len v :: v ++ r.
Proof.
  destruct l as [|tag [|n r0]]; cbn [read_tlv]; try discriminate.
  destruct (N.land tag 31 =? 31); [discriminate|].
  destruct (N.land n 128 =? 0).
  { intros H _. apply take_value_inv in H as (-> & -> & <-). reflexivity. }
  intros H L. exfalso.
  destruct (n =? 129).
  { destruct r0 as [|b r']; [discriminate|]. apply long_form_inv in H. lia. }
  destruct (n =? 130).
  { destruct r0 as [|b1 [|b2 r']]; try discriminate. apply long_form_inv in H. lia. }
  destruct (n =? 131).
  { destruct r0 as [|b1 [|b2 [|b3 r']]]; try discriminate. apply long_form_inv in H. lia. }
  destruct (n =? 132).
  { destruct r0 as [|b1 [|b2 [|b3 [|b4 r']]]]; try discriminate. apply long_form_inv in H. lia. }
  discriminate.
Qed.

Lemma expect_tag_short t l v r :
  expect_tag t l = Some (v, r) -> len v < 128 -> l = t :: len v :: v ++ r.
Proof.
  unfold expect_tag. destruct (read_tlv l) as [[[tag v'] r']|] eqn:E; [|discriminate].
  destruct (tag =? t) eqn:Et; [|discriminate]. intros [= <- <-] L.
  apply N.eqb_eq in Et. subst tag. now apply read_tlv_short.
Qed.

Lemma raw_entity_inv cert v key :
  raw_public_key_entity cert = Some v -> spki_inner v = Some (ED25519_ALG_ID, key) ->
  len key = 32 -> cert = SPKI_PREFIX ++ key.
Proof.
  unfold raw_public_key_entity.
  destruct (expect_tag 48 cert) as [[v' [|? ?]]|] eqn:E; try discriminate.
  destruct (spki_inner v'); [|discriminate]. intros [= ->]. unfold spki_inner.
  destruct (expect_tag 48 v) as [[alg r]|] eqn:E1; [|discriminate].
  destruct (expect_tag 3 r) as [[[|[|?] key'] [|? ?]]|] eqn:E2; try discriminate.
  intros [= -> ->] Lk.
  (* from the innermost value outwards: with 32 key bytes each value is shorter than 128, so each
     header is the two-byte short form; 42 is 2 + 5 for the algorithm and 2 + 1 + 32 for the bit
     string with its unused-bits byte *)
  apply expect_tag_short in E2; [|rewrite len_cons; lia].
  apply expect_tag_short in E1; [|reflexivity].
  assert (Lv : len v = 42) by (rewrite E1, E2, app_nil_r, !len_cons, len_app, !len_cons, Lk; reflexivity).
  apply expect_tag_short in E; [|rewrite Lv; reflexivity].
  rewrite E, Lv, E1, E2, len_cons, Lk, !app_nil_r. reflexivity.
Qed.

Lemma der_wrap_short tag body : len body <= 127 -> der_wrap tag body = tag :: len body :: body.
Proof. intros H. unfold der_wrap. now rewrite (proj2 (N.leb_le _ _) H). Qed.

Lemma spki_of_key_32 k : len k = 32 -> spki_of_key k = SPKI_PREFIX ++ k.
Proof.
  intros H. unfold spki_of_key.
  rewrite (der_wrap_short 3), (der_wrap_short 48 ED25519_ALG_ID), der_wrap_short;
    rewrite ?len_app, ?len_cons, ?H; [reflexivity | discriminate ..].
Qed.

Lemma spki_of_key_inj k k' :
  len k = 32 -> len k' = 32 -> spki_of_key k = spki_of_key k' -> k = k'.
Proof.
  intros H H' E. rewrite !spki_of_key_32 in E by assumption.
  now apply app_inv_head in E.
Qed.

Lemma prefix_parts k : len k = 32 ->
  len (SPKI_PREFIX ++ k) = 44 /\ firstn 12 (SPKI_PREFIX ++ k) = SPKI_PREFIX /\
  skipn 12 (SPKI_PREFIX ++ k) = k.
Proof. intros H. rewrite len_app, H. repeat split. Qed.

Lemma key_ok_len k : key_ok k = true -> len k = 32.
Proof. unfold key_ok. intros H. apply andb_prop in H as (L & _). now apply N.eqb_eq. Qed.

Section Crypto.
Variable is_point : bytes -> bool.
Variable verify : bytes -> bytes -> bytes -> bool.

(* these shadow the model's names up to the end of the section: to unfold one, qualify it
   ([unfold C01.name_decode]) *)
Notation name_decode := (name_decode is_point).
Notation verify_server_cert := (verify_server_cert is_point).
Notation tls13_sig := (tls13_sig is_point verify).
Notation remote_id_of_certs := (remote_id_of_certs is_point).
Notation key_of_spki_der := (key_of_spki_der is_point).
Notation client_accepts := (client_accepts is_point verify).
Notation server_accepts := (server_accepts is_point verify).

Lemma name_decode_encode k :
  bytes_ok k = true ->
  name_decode (name_encode k) = if (len k =? 32) && is_point k then Some k else None.
Proof.
  intros Hk. unfold C01.name_decode, name_encode.
  rewrite split_name_encode.
  replace (bytes_eqb IROH IROH && bytes_eqb INVALID INVALID) with true by reflexivity.
  unfold b32_decode, b32_encode. rewrite encode_map_fixed by reflexivity.
  rewrite (decode_encode _ B32_ok) by exact Hk. reflexivity.
Qed.

Lemma name_decode_encode_key K :
  key_ok K = true -> name_decode (name_encode K) = if is_point K then Some K else None.
Proof.
  unfold key_ok. intros (L & B)%andb_prop. rewrite name_decode_encode by exact B. now rewrite L.
Qed.

Lemma name_roundtrip k :
  key_ok k = true -> is_point k = true -> name_decode (name_encode k) = Some k.
Proof. intros H P. now rewrite name_decode_encode_key, P. Qed.

Lemma name_decode_encode_some K k :
  key_ok K = true -> name_decode (name_encode K) = Some k -> k = K /\ is_point K = true.
Proof.
  intros H. rewrite name_decode_encode_key by exact H.
  destruct (is_point K); [|discriminate]. now intros [= <-].
Qed.

Lemma name_decode_shape s k :
  name_decode s = Some k ->
  exists l, s = l ++ SUFFIX /\ length l = 52%nat /\
            map fold_sym l = b32_encode k /\ len k = 32 /\ is_point k = true.
Proof using is_point verify. (* [verify] is not needed: see name_decode_shape_ip *)
  unfold C01.name_decode.
  pose proof (proj1 (Proofs.C12.split_on_spec DOT s)) as J. rewrite <- split_dot_on in J.
  destruct (split_dot s) as [|l [|a [|b [|? ?]]]]; try discriminate.
  destruct (bytes_eqb a IROH && bytes_eqb b INVALID) eqn:E; [|discriminate].
  apply andb_prop in E as (Ea & Eb).
  apply bytes_eqb_eq in Ea. apply bytes_eqb_eq in Eb. subst a b.
  unfold b32_decode.
  destruct (decode BASE32_DNSSEC (map fold_sym l)) as [k'| |] eqn:D; try discriminate.
  destruct ((len k' =? 32) && is_point k') eqn:E; [|discriminate].
  intros [= ->]. apply andb_prop in E as (L & P). apply N.eqb_eq in L.
  (* J: the three parts joined at the dot are [l ++ SUFFIX], by computation *)
  exists l. split; [symmetry; exact J|]. repeat split; auto.
  - pose proof (decode_length _ B32_ok _ _ D) as ((A & B) & _).
    rewrite map_length in A, B. cbn [bitw BASE32_DNSSEC] in A, B.
    unfold len in L. lia.
  - symmetry. apply (encode_decode _ B32_ok); [reflexivity|exact D].
Qed.

Lemma tls13_sig_ok_inv cert sch m s :
  tls13_sig cert sch m s = V_OK ->
  exists k, cert = SPKI_PREFIX ++ k /\ len k = 32 /\ is_point k = true /\
            len s = 64 /\ verify k m s = true /\ sch = SCHEME_ED25519.
Proof.
  unfold C01.tls13_sig.
  destruct (negb (scheme_tls13 sch)); [discriminate|].
  destruct (raw_public_key_entity cert) as [v|] eqn:R; [|discriminate].
  destruct (negb (sch =? SCHEME_ED25519)) eqn:Es; [discriminate|].
  destruct (spki_inner v) as [[alg key]|] eqn:S; [|discriminate].
  destruct (negb (bytes_eqb alg ED25519_ALG_ID)) eqn:Ea; [discriminate|].
  destruct (ed25519_verify_signature is_point verify key m s) eqn:Ev; [|discriminate].
  intros _.
  apply negb_false_iff in Ea. apply bytes_eqb_eq in Ea. subst alg.
  unfold ed25519_verify_signature in Ev.
  apply andb_prop in Ev as (Ev & V). apply andb_prop in Ev as (Ev & Ls%N.eqb_eq).
  apply andb_prop in Ev as (Lk%N.eqb_eq & P).
  exists key. repeat split; auto.
  - exact (raw_entity_inv _ _ _ R S Lk).
  - lia.
Qed.

Lemma tls12_refused cert sch m s : tls12_sig cert sch m s <> V_OK.
Proof. discriminate. Qed.

Lemma key_of_spki_der_spec c k :
  key_of_spki_der c = Some k <-> c = SPKI_PREFIX ++ k /\ len k = 32 /\ is_point k = true.
Proof.
  unfold C01.key_of_spki_der. split.
  - destruct ((len c =? 44) && bytes_eqb (firstn 12 c) SPKI_PREFIX) eqn:E; [|discriminate].
    apply andb_prop in E as (L & F). apply N.eqb_eq in L. apply bytes_eqb_eq in F.
    destruct (is_point (skipn 12 c)) eqn:P; [|discriminate]. intros H.
    replace k with (skipn 12 c) by congruence.
    rewrite <- F, firstn_skipn, len_skipn, L. auto.
  - intros (-> & L & P). destruct (prefix_parts k L) as (A & B & C). now rewrite A, B, C, P.
Qed.

Lemma remote_id_spki k :
  len k = 32 -> is_point k = true -> remote_id_of_certs [spki_of_key k] = Some k.
Proof.
  intros L P. cbn [C01.remote_id_of_certs]. rewrite spki_of_key_32 by exact L.
  now apply key_of_spki_der_spec.
Qed.

Lemma verify_server_cert_ok_inv e ins sn :
  verify_server_cert e ins sn = V_OK ->
  exists s k, sn = SnDns s /\ name_decode s = Some k /\ ins = [] /\ e = spki_of_key k.
Proof.
  unfold C01.verify_server_cert.
  destruct sn as [s| |]; try discriminate.
  destruct (name_decode s) as [k|] eqn:D; [|discriminate].
  destruct ins; [|discriminate].
  destruct (bytes_eqb (spki_of_key k) e) eqn:E; [|discriminate].
  intros _. apply bytes_eqb_eq in E. exists s, k. auto.
Qed.

Theorem dial_authenticates K h :
  key_ok K = true -> client_accepts K h = true ->
  verify K (msg h) (sg h) = true /\ inters h = [] /\ ee h = spki_of_key K /\
  is_point K = true /\ scheme h = SCHEME_ED25519 /\ len (sg h) = 64.
Proof.
  intros HK H. unfold C01.client_accepts, client_verdicts in H. cbn [fst snd] in H.
  apply andb_prop in H as (Hc%N.eqb_eq & Hs%N.eqb_eq).
  apply verify_server_cert_ok_inv in Hc as (s & k & Es & D & I & E).
  injection Es as <-.
  destruct (name_decode_encode_some K k HK D) as (-> & P).
  apply tls13_sig_ok_inv in Hs as (k' & Ec & Lk' & P' & Ls & V & Sch).
  rewrite E, <- (spki_of_key_32 k' Lk') in Ec.
  apply spki_of_key_inj in Ec as <-; auto 10 using key_ok_len.
Qed.

Theorem remote_id_client K h :
  key_ok K = true -> client_accepts K h = true -> remote_id_of_certs [ee h] = Some K.
Proof.
  intros HK H. destruct (dial_authenticates K h HK H) as (_ & _ & E & P & _).
  rewrite E. apply remote_id_spki; auto using key_ok_len.
Qed.

Theorem remote_id_server h :
  server_accepts h = true ->
  exists k, remote_id_of_certs [ee h] = Some k /\ ee h = spki_of_key k /\ inters h = [] /\
            len k = 32 /\ is_point k = true /\ verify k (msg h) (sg h) = true /\
            scheme h = SCHEME_ED25519.
Proof.
  intros H. unfold C01.server_accepts, server_verdicts in H. cbn [fst snd] in H.
  apply andb_prop in H as (Hc%N.eqb_eq & Hs%N.eqb_eq).
  apply tls13_sig_ok_inv in Hs as (k & Ec & Lk & P & Ls & V & Sch).
  exists k. rewrite <- (spki_of_key_32 k Lk) in Ec. rewrite Ec.
  repeat split; auto.
  - now apply remote_id_spki.
  - unfold verify_client_cert in Hc. destruct (inters h); [reflexivity|discriminate].
Qed.

Lemma dial_outcome_ok K Kp KA ra rb :
  key_ok K = true -> key_ok Kp = true -> key_ok KA = true ->
  is_point Kp = true -> is_point KA = true ->
  dial_outcome is_point K Kp KA = (true, ra, rb) ->
  K = Kp /\ ra = Some Kp /\ rb = Some KA.
Proof.
  intros HK HKp HKA Pp Pa. unfold dial_outcome, own_certs.
  rewrite !remote_id_spki by auto using key_ok_len.
  destruct (verify_server_cert _ _ _ =? V_OK) eqn:E; [|discriminate].
  destruct (verify_client_cert _ _ =? V_OK); [|discriminate].
  intros [= <- <-].
  apply N.eqb_eq in E. apply verify_server_cert_ok_inv in E as (s & k & [= <-] & D & _ & E).
  destruct (name_decode_encode_some K k HK D) as (-> & _).
  apply spki_of_key_inj in E; auto using key_ok_len.
Qed.

Lemma obytes_eqb_refl o : obytes_eqb o o = true.
Proof. apply opt_eqb_refl, bytes_eqb_refl. Qed.

Lemma run_monitor o : monitor_op is_point verify o (run is_point verify o) = true.
Proof.
  destruct o as [k|s|e ins sn|e ins|cs tls12 cert sch m s|cs|k|K h|h|K Kp KA]; cbn [run].
  - cbn [monitor_op]. destruct (key_ok k && is_point k) eqn:E; [|reflexivity].
    apply andb_prop in E as (HK & P). rewrite name_roundtrip by assumption. apply obytes_eqb_refl.
  - destruct (name_decode s) as [k|] eqn:D; [|reflexivity].
    apply name_decode_shape in D as (l & -> & Ll & F & Lk & P).
    cbn [monitor_op]. cbv zeta.
    rewrite app_length, Nat.add_sub, firstn_app_exact.
    rewrite bytes_eqb_refl, F, bytes_eqb_refl, Lk, P.
    unfold len. rewrite Ll. reflexivity.
  - cbn [monitor_op]. destruct (verify_server_cert e ins sn =? V_OK) eqn:E; [|reflexivity].
    apply N.eqb_eq in E. apply verify_server_cert_ok_inv in E as (s & k & -> & D & -> & ->).
    rewrite D. apply bytes_eqb_refl.
  - cbn [monitor_op]. unfold verify_client_cert. destruct ins; reflexivity.
  - destruct tls12; cbn [monitor_op]; [reflexivity|].
    destruct (tls13_sig cert sch m s =? V_OK) eqn:E; [|reflexivity].
    apply N.eqb_eq in E. apply tls13_sig_ok_inv in E as (k & -> & Lk & P & Ls & V & ->).
    destruct (prefix_parts k Lk) as (A & B & C). rewrite A, B, C, P, V. reflexivity.
  - destruct (remote_id_of_certs cs) as [k|] eqn:R; [|reflexivity].
    cbn [monitor_op]. destruct cs as [|c [|? ?]]; try discriminate.
    cbn [C01.remote_id_of_certs] in R. apply key_of_spki_der_spec in R as (-> & _ & P).
    now rewrite bytes_eqb_refl, P.
  - cbn [monitor_op]. destruct (key_ok k && is_point k) eqn:E; [|reflexivity].
    apply andb_prop in E as (HK & P). unfold own_certs.
    rewrite remote_id_spki; auto using key_ok_len. apply obytes_eqb_refl.
  - destruct (client_verdicts is_point verify K h) as [c s] eqn:CV. cbn [monitor_op].
    destruct (key_ok K && (c =? V_OK) && (s =? V_OK)) eqn:E; [|reflexivity].
    apply andb_prop in E as (E & Es). apply andb_prop in E as (HK & Ec).
    assert (A : client_accepts K h = true).
    { unfold C01.client_accepts. rewrite CV. cbn [fst snd]. now rewrite Ec, Es. }
    destruct (dial_authenticates K h HK A) as (V & I & Ee & _).
    rewrite (remote_id_client K h HK A), V, I, Ee, bytes_eqb_refl, obytes_eqb_refl. reflexivity.
  - destruct (server_verdicts is_point verify h) as [c s] eqn:SV. cbn [monitor_op].
    destruct ((c =? V_OK) && (s =? V_OK)) eqn:E; [|reflexivity].
    assert (A : server_accepts h = true).
    { unfold C01.server_accepts. rewrite SV. cbn [fst snd]. exact E. }
    destruct (remote_id_server h A) as (k & R & Ee & I & Lk & P & V & _).
    rewrite R, V, I, Ee, bytes_eqb_refl, Lk, P. reflexivity.
  - destruct (dial_outcome is_point K Kp KA) as [[ok ra] rb] eqn:D. cbn [monitor_op].
    destruct (key_ok K && key_ok Kp && key_ok KA && is_point Kp && is_point KA && ok) eqn:E;
      [|reflexivity].
    do 5 (apply andb_prop in E; destruct E as (E & ?)). subst ok.
    destruct (dial_outcome_ok K Kp KA ra rb) as (-> & -> & ->); auto.
    now rewrite bytes_eqb_refl, !obytes_eqb_refl.
Qed.

End Crypto.

(* name_decode_shape is closed over both section variables (Proof using); name_decode needs
   is_point alone *)
Lemma name_decode_shape_ip is_point s k :
  name_decode is_point s = Some k ->
  exists l, s = l ++ SUFFIX /\ length l = 52%nat /\
            map fold_sym l = b32_encode k /\ len k = 32 /\ is_point k = true.
Proof. exact (name_decode_shape is_point (fun _ _ _ => true) s k). Qed.

Theorem model_monitor i : monitor i (model i) = true.
Proof. destruct i as [o p]. unfold monitor, model. cbn [fst snd]. apply run_monitor. Qed.

Theorem monitor_client_hs_spec or K h c s rid :
  key_ok K = true ->
  (monitor (or, OpClientHs K h) (Ok (OHs c s rid)) = true <->
   (c = V_OK -> s = V_OK ->
    o_verify or K (msg h) (sg h) = true /\ inters h = [] /\ ee h = spki_of_key K /\ rid = Some K)).
Proof.
  intros HK. unfold monitor. cbn [fst snd monitor_op]. rewrite HK. cbn [andb].
  apply impb_and. apply impb_iff; [apply N.eqb_eq|]. apply impb_iff; [apply N.eqb_eq|].
  repeat apply andb_assoc_iff. apply andb_iff; [apply iff_refl|]. apply andb_iff; [apply nil_iff|].
  apply andb_iff; [|apply opt_eqb_iff, bytes_eqb_iff].
  eapply iff_trans; [apply bytes_eqb_iff|]. split; intros E; symmetry; exact E.
Qed.

Definition K0 : bytes := fill 32 1.
Definition SIG0 : bytes := repeat 0 64.
Definition or0 : oracle := mkOracle [K0] [(K0, [], SIG0)].
Definition h0 : hs := mkHs (spki_of_key K0) [] SCHEME_ED25519 [] SIG0.

(* [lcg_bytes] by masks and shifts.  coqchk has no VM and reduces [vm_compute]'s casts with the
   lazy machine, where division on binary numbers is slow and these are not: the examples
   evaluate [fill] through this twin. *)
Fixpoint lcg_bits (n : nat) (x : N) : bytes :=
  match n with
  | O => []
  | S n' => let x' := N.land (x * 1103515245 + 12345) (N.ones 31) in
            N.land (N.shiftr x' 16) (N.ones 8) :: lcg_bits n' x'
  end.

Lemma fill_bits n x : fill n x = lcg_bits (N.to_nat n) x.
Proof.
  unfold fill. revert x. induction (N.to_nat n) as [|m IH]; intros x; [reflexivity|].
  cbn [lcg_bytes lcg_bits]. cbv zeta. generalize (x * 1103515245 + 12345). intros y.
  now rewrite IH, !N.land_ones, N.shiftr_div_pow2.
Qed.

(* K0's bytes are computed once and the examples start from them *)
Lemma K0_bytes :
  K0 = [198; 126; 129; 107; 75; 251; 226; 251; 84; 246; 189; 223; 124; 28; 225; 135;
        1; 191; 49; 222; 86; 114; 15; 71; 103; 102; 135; 89; 170; 136; 60; 89].
Proof. unfold K0. rewrite fill_bits. vm_compute. reflexivity. Qed.

Example key_ok_K0 : key_ok K0 = true.
Proof. rewrite K0_bytes. vm_compute. reflexivity. Qed.

(* the hypotheses of dial_authenticates are satisfiable *)
Example client_accepts_h0 : client_accepts (o_is_point or0) (o_verify or0) K0 h0 = true.
Proof. unfold h0, or0. rewrite K0_bytes. vm_compute. reflexivity. Qed.

Example server_accepts_h0 : server_accepts (o_is_point or0) (o_verify or0) h0 = true.
Proof. unfold h0, or0. rewrite K0_bytes. vm_compute. reflexivity. Qed.

Example client_rejects_other_key :
  client_accepts (fun _ => true) (fun _ _ _ => true) (fill 32 2) h0 = false.
Proof. unfold h0. rewrite K0_bytes, fill_bits. vm_compute. reflexivity. Qed.

Example client_rejects_chain :
  client_accepts (fun _ => true) (fun _ _ _ => true) K0
    (mkHs (spki_of_key K0) [spki_of_key K0] SCHEME_ED25519 [] SIG0) = false.
Proof. rewrite K0_bytes. vm_compute. reflexivity. Qed.

(* the snapshot of iroh's own unit test (tls/name.rs test_snapshot) *)
Example name_snapshot :
  name_encode (hex "3b6a27bcceb6a42d62a3a8d02a6f0d73653215771de243a63ac048a18b59da29")
  = str_bytes "7dl2ff6emqi2qol3l382krodedij45bn3nh479hqo14a32qpr8kg.iroh.invalid".
Proof. vm_compute. reflexivity. Qed.

(* upper case is accepted: the shape theorem cannot be stated without the folding *)
Example upper_case_decodes :
  name_decode (fun _ => true)
    (str_bytes "7DL2FF6EMQI2QOL3L382KRODEDIJ45BN3NH479HQO14A32QPR8KG.iroh.invalid")
  = Some (hex "3b6a27bcceb6a42d62a3a8d02a6f0d73653215771de243a63ac048a18b59da29").
Proof. vm_compute. reflexivity. Qed.

Example suffix_case_sensitive :
  name_decode (fun _ => true)
    (str_bytes "7dl2ff6emqi2qol3l382krodedij45bn3nh479hqo14a32qpr8kg.IROH.invalid") = None.
Proof. vm_compute. reflexivity. Qed.

Example long_form_length_refused :
  tls13_sig (fun _ => true) (fun _ _ _ => true)
    (48 :: 129 :: 42 :: skipn 2 (spki_of_key K0)) SCHEME_ED25519 [] SIG0 = V_ENCODING.
Proof. vm_compute. reflexivity. Qed.
