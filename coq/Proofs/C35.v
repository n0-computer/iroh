(* C35 — the resolve_host_all stream yields [spec] of possible answers in some finishing order.
   A state knows neither what the lookups still running will answer nor in which order they
   will finish, so what it may still yield is a set: [outcome s l] says that l is [expected]
   for some possible answers and some order.  A call of [next] [leads] from s to s' with the
   item it emits: every outcome of s', put behind that item, is an outcome of s ([next_ok]).
   Inside it a [select] makes [progress]: it emits nothing, leads on, and leaves fewer lookups
   unfinished, which is what the fuel of [next] counts.  Chained along [collect], the items
   yielded from [init_state] are an outcome of [init_state], that is a [spec] ([dom_stream]). *)
From V Require Import Lib.Base Lib.MachineInt Model.C35.
Import C35.
Open Scope N_scope.

Section Machine.
Variable c : cfg.

Definition poss (d : N) (r a : answer) : Prop := a = r \/ (timeout c < d /\ a = Err 1).

Lemma poll_poss d r f t a : poll_op c d r f t = Some a -> poss d r a.
Proof.
  unfold poll_op, poss. destruct f as [|st|st x]; try discriminate.
  destruct (N.leb_spec (st + d) t); [intros [= <-]; now left|].
  destruct (N.leb_spec (st + timeout c) t); [intros [= <-]; right; split; [lia|reflexivity]|discriminate].
Qed.

Definition done (f : fut) : option answer := match f with Finished _ a => Some a | _ => None end.

Lemma done_start f t : done (start f t) = done f.
Proof. now destruct f. Qed.

Lemma is_fin_done f : is_fin f = match done f with Some _ => true | None => false end.
Proof. now destruct f. Qed.

Lemma poll_done d r f t t' a : poll_op c d r (start f t) t' = Some a -> done f = None.
Proof. now destruct f. Qed.

Lemma poll_wait d r f t : poll_op c d r f t = None ->
  match wake c d f with Some w => t < w | None => True end.
Proof.
  destruct f as [|st|st x]; cbn; trivial.
  destruct (N.leb_spec (st + d) t); [discriminate|].
  destruct (N.leb_spec (st + timeout c) t); [discriminate|lia].
Qed.

Definition good1 (d : N) (r : answer) (f : fut) (e : option N) : Prop :=
  match f with
  | Finished _ a => poss d r a /\ e = err_of a
  | _ => e = None
  end.

Definition fin_poss (d : N) (r : answer) (f : fut) : Prop :=
  match f with Finished _ a => poss d r a | _ => True end.

Lemma good1_done d r f e :
  good1 d r f e <-> match done f with Some a => poss d r a /\ e = err_of a | None => e = None end.
Proof. now destruct f. Qed.

Lemma good1_fin d r f e : good1 d r f e -> fin_poss d r f.
Proof. destruct f; cbn; tauto. Qed.

Definition pend (fam : N) (A : answer) (f : fut) : list addr :=
  match done f with None => block fam A | Some _ => [] end.
Definition unfin (f : fut) : nat := match done f with None => 1 | Some _ => 0 end.
Definition ans (A : answer) (f : fut) : answer := match done f with Some a => a | None => A end.

Lemma wake_start d f t : wake c d (start f t) = None -> unfin f = 0%nat.
Proof. destruct f; [discriminate..|reflexivity]. Qed.

(* invariant: a finished lookup gave a possible answer; while the stream is open each error
   slot holds the error of its lookup's answer, from which the last item is computed.  Only
   that third conjunct is drawn on below ([good_open]); the first two are carried along. *)
Definition good (s : state) : Prop :=
  fin_poss (d4 c) (r4 c) (f4 s) /\ fin_poss (d6 c) (r6 c) (f6 s) /\
  (closed s = true \/ (good1 (d4 c) (r4 c) (f4 s) (e4 s) /\ good1 (d6 c) (r6 c) (f6 s) (e6 s))).

Lemma good_open s : good s -> closed s = false ->
  good1 (d4 c) (r4 c) (f4 s) (e4 s) /\ good1 (d6 c) (r6 c) (f6 s) (e6 s).
Proof. intros (_ & _ & [H|H]) Hc; [congruence|exact H]. Qed.

Lemma good1_good s :
  good1 (d4 c) (r4 c) (f4 s) (e4 s) -> good1 (d6 c) (r6 c) (f6 s) (e6 s) -> good s.
Proof. intros G4 G6. split; [|split]; eauto using good1_fin. Qed.

Definition nonempty {A} (l : list A) : bool := match l with [] => false | _ => true end.

(* [spec_tail] on the flag "an address was or will be yielded": a state on its way has
   [yielded] for the addresses gone by and no list of them *)
Definition tail (A4 A6 : answer) (have : bool) : list item :=
  match err_of A4, err_of A6 with
  | Some a, Some b => [IBoth a b]
  | _, _ => if have then [] else [INoResp]
  end.

Lemma tail_spec a4 a6 oks : tail a4 a6 (nonempty oks) = spec_tail a4 a6 oks.
Proof. unfold tail, spec_tail. destruct (err_of a4), (err_of a6), oks; reflexivity. Qed.

(* what s has still to yield if the unfinished lookups answer A4, A6 and finish in the
   order ord (true: v4 first) *)
Definition expected (A4 A6 : answer) (ord : bool) (s : state) : list item :=
  if closed s then [] else
  let p4 := pend 4 A4 (f4 s) in
  let p6 := pend 6 A6 (f6 s) in
  let oks := queue s ++ (if ord then p4 ++ p6 else p6 ++ p4) in
  map IAddr oks ++ tail (ans A4 (f4 s)) (ans A6 (f6 s)) (yielded s || nonempty oks).

Lemma expected_init A4 A6 ord : expected A4 A6 ord init_state = spec A4 A6 ord.
Proof. unfold expected, spec. cbn [closed yielded init_state orb]. now rewrite tail_spec. Qed.

Definition outcome (s : state) (l : list item) : Prop :=
  exists A4 A6 ord, poss (d4 c) (r4 c) A4 /\ poss (d6 c) (r6 c) A6 /\ l = expected A4 A6 ord s.

Lemma outcome_ex s : outcome s (expected (r4 c) (r6 c) true s).
Proof. exists (r4 c), (r6 c), true. split; [now left|]. split; [now left|reflexivity]. Qed.

Lemma outcome_closed s : closed s = true -> outcome s [].
Proof. intros Hc. pose proof (outcome_ex s) as O. unfold expected in O. now rewrite Hc in O. Qed.

Definition leads (s : state) (pre : list item) (s2 : state) : Prop :=
  forall l, outcome s2 l -> outcome s (pre ++ l).

Lemma leads_same s pre s2 :
  (forall A4 A6 ord, expected A4 A6 ord s = pre ++ expected A4 A6 ord s2) -> leads s pre s2.
Proof.
  intros E l (A4 & A6 & ord & P4 & P6 & ->). exists A4, A6, ord.
  split; [exact P4|]. split; [exact P6|]. symmetry. apply E.
Qed.

Definition nunfin (s : state) : nat := (unfin (f4 s) + unfin (f6 s))%nat.

Definition progress (s s2 : state) : Prop :=
  good s2 /\ (nunfin s2 < nunfin s)%nat /\ leads s [] s2.

Lemma put4_eq s g4 g6 t a : e4 s = None ->
  put4 s g4 g6 t a = mkS g4 g6 (err_of a) (e6 s) (queue s ++ block 4 a) (closed s) (yielded s) t.
Proof. intros E. destruct a; cbn; rewrite ?E, ?app_nil_r; reflexivity. Qed.

Lemma put6_eq s g4 g6 t a : e6 s = None ->
  put6 s g4 g6 t a = mkS g4 g6 (e4 s) (err_of a) (queue s ++ block 6 a) (closed s) (yielded s) t.
Proof. intros E. destruct a; cbn; rewrite ?E, ?app_nil_r; reflexivity. Qed.

Lemma put4_spec s g6 st t a :
  closed s = false -> queue s = [] -> good s -> done (f4 s) = None -> done g6 = done (f6 s) ->
  poss (d4 c) (r4 c) a -> progress s (put4 s (Finished st a) g6 t a).
Proof.
  intros Hc Hq Hg D4 D6 Hp. destruct (good_open s Hg Hc) as [G4 G6].
  rewrite good1_done, D4 in G4. rewrite good1_done, <- D6 in G6.
  rewrite (put4_eq _ _ _ _ _ G4).
  split; [apply good1_good; [now split|now apply good1_done]|].
  split; [unfold nunfin, unfin; cbn [f4 f6 done]; rewrite D4, D6; lia|].
  (* the answer just given is the chosen one, its lookup finishes first *)
  intros l (A4 & A6 & ord & _ & P6 & ->). exists a, A6, true.
  split; [exact Hp|]. split; [exact P6|].
  unfold expected, pend, ans. cbn [f4 f6 queue closed yielded done]. rewrite Hc, Hq, D4, D6.
  cbn [app]. destruct ord; now rewrite ?app_nil_r.
Qed.

(* The proof of put4_spec with ord = false.  Not an instance of it with the lanes swapped:
   addresses keep their family tag, and IBoth, tail and expected name v4 first. *)
Lemma put6_spec s g4 st t a :
  closed s = false -> queue s = [] -> good s -> done (f6 s) = None -> done g4 = done (f4 s) ->
  poss (d6 c) (r6 c) a -> progress s (put6 s g4 (Finished st a) t a).
Proof.
  intros Hc Hq Hg D6 D4 Hp. destruct (good_open s Hg Hc) as [G4 G6].
  rewrite good1_done, D6 in G6. rewrite good1_done, <- D4 in G4.
  rewrite (put6_eq _ _ _ _ _ G6).
  split; [apply good1_good; [now apply good1_done|now split]|].
  split; [unfold nunfin, unfin; cbn [f4 f6 done]; rewrite D4, D6; lia|].
  intros l (A4 & A6 & ord & P4 & _ & ->). exists A4, a, false.
  split; [exact P4|]. split; [exact Hp|].
  unfold expected, pend, ans. cbn [f4 f6 queue closed yielded done]. rewrite Hc, Hq, D4, D6.
  cbn [app]. destruct ord; now rewrite ?app_nil_r.
Qed.

Lemma select_spec s :
  closed s = false -> queue s = [] -> good s -> (0 < nunfin s)%nat -> progress s (select c s).
Proof.
  intros Hc Hq Hg Hn. unfold select.
  set (t := now s). set (g4 := start (f4 s) t). set (g6 := start (f6 s) t).
  destruct (poll_op c (d4 c) (r4 c) g4 t) as [a|] eqn:P4.
  { apply put4_spec; eauto using poll_poss, poll_done. }
  destruct (poll_op c (d6 c) (r6 c) g6 t) as [a|] eqn:P6.
  { apply put6_spec; eauto using poll_poss, poll_done, done_start. }
  set (t' := match wake c (d4 c) g4, wake c (d6 c) g6 with
             | Some a, Some b => N.min a b | Some a, None => a | None, Some b => b | None, None => t end).
  destruct (poll_op c (d4 c) (r4 c) g4 t') as [a|] eqn:Q4.
  { apply put4_spec; eauto using poll_poss, poll_done, done_start. }
  destruct (poll_op c (d6 c) (r6 c) g6 t') as [a|] eqn:Q6.
  { apply put6_spec; eauto using poll_poss, poll_done, done_start. }
  (* unreachable: a lookup that is not ready wakes later, one of them wakes at t', and with
     no lookup left to wake both had finished *)
  exfalso. apply poll_wait in Q4, Q6. subst t'.
  destruct (wake c (d4 c) g4) eqn:W4, (wake c (d6 c) g6) eqn:W6; try lia.
  apply wake_start in W4, W6. unfold nunfin in Hn. lia.
Qed.

Definition emitted (o : option item) : list item := match o with Some it => [it] | None => [] end.

Definition next_ok (s : state) (r : option item * state) : Prop :=
  let (o, s') := r in
  good s' /\ (o = None -> closed s' = true) /\ leads s (emitted o) s'.

Definition final_item (s : state) : option item :=
  match e4 s, e6 s with
  | Some a, Some b => Some (IBoth a b)
  | _, _ => if negb (yielded s) then Some INoResp else None
  end.
Definition close (s : state) : state := mkS (f4 s) (f6 s) None None [] true (yielded s) (now s).

Lemma next_unfold fuel s :
  next fuel c s =
  if closed s then (None, s) else
  match queue s with
  | a :: q => (Some (IAddr a), mkS (f4 s) (f6 s) (e4 s) (e6 s) q (closed s) true (now s))
  | [] => if is_fin (f4 s) && is_fin (f6 s) then (final_item s, close s)
          else match fuel with O => (None, s) | Datatypes.S f => next f c (select c s) end
  end.
Proof. destruct fuel; cbn [next]; unfold final_item, close; destruct (e4 s), (e6 s), (yielded s); reflexivity. Qed.

Lemma closed_spec s : good s -> closed s = true -> next_ok s (None, s).
Proof. intros Hg Hc. split; [exact Hg|]. split; [auto|]. intros l Hl. exact Hl. Qed.

Lemma pop_spec s a q :
  good s -> closed s = false -> queue s = a :: q ->
  next_ok s (Some (IAddr a), mkS (f4 s) (f6 s) (e4 s) (e6 s) q false true (now s)).
Proof.
  intros Hg Hc Hq. destruct (good_open s Hg Hc) as [G4 G6].
  split; [now apply good1_good|]. split; [discriminate|].
  apply leads_same. intros A4 A6 ord.
  unfold expected. cbn. rewrite Hc, Hq. cbn. rewrite orb_true_r. reflexivity.
Qed.

Lemma final_spec s :
  good s -> closed s = false -> queue s = [] -> is_fin (f4 s) && is_fin (f6 s) = true ->
  next_ok s (final_item s, close s).
Proof.
  intros Hg Hc Hq F. rewrite !is_fin_done in F.
  destruct (good_open s Hg Hc) as [G4 G6]. rewrite good1_done in G4, G6.
  destruct (done (f4 s)) as [a4|] eqn:D4; [|discriminate].
  destruct (done (f6 s)) as [a6|] eqn:D6; [|discriminate].
  split; [split; [apply Hg|split; [apply Hg|now left]]|]. split; [reflexivity|].
  apply leads_same. intros A4 A6 ord.
  unfold expected, pend, ans, tail, final_item. cbn [closed close]. rewrite Hc, Hq, D4, D6.
  destruct G4 as [_ ->], G6 as [_ ->].
  destruct (err_of a4), (err_of a6), (yielded s), ord; reflexivity.
Qed.

Lemma nunfin_pos s : is_fin (f4 s) && is_fin (f6 s) = false -> (0 < nunfin s)%nat.
Proof.
  rewrite !is_fin_done. unfold nunfin, unfin.
  destruct (done (f4 s)); [|lia]. destruct (done (f6 s)); [discriminate|lia].
Qed.

Lemma next_spec fuel : forall s, good s -> (nunfin s <= fuel)%nat -> next_ok s (next fuel c s).
Proof.
  induction fuel as [fuel IH] using lt_wf_ind. intros s Hg Hn. rewrite next_unfold.
  destruct (closed s) eqn:Hc; [now apply closed_spec|].
  destruct (queue s) as [|a q] eqn:Hq; [|now apply pop_spec].
  destruct (is_fin (f4 s) && is_fin (f6 s)) eqn:F; [now apply final_spec|].
  apply nunfin_pos in F. destruct fuel as [|fuel]; [lia|].
  destruct (select_spec s Hc Hq Hg F) as (G2 & N2 & L2).
  specialize (IH fuel (Nat.lt_succ_diag_r fuel) (select c s) G2 ltac:(lia)). unfold next_ok in *.
  destruct (next fuel c (select c s)) as [o s'].
  destruct IH as (G' & C' & L').
  split; [exact G'|]. split; [exact C'|]. intros l Hl. exact (L2 _ (L' l Hl)).
Qed.

Lemma advance_good s g : good s -> good (advance s g).
Proof. now intros H. Qed.

Lemma collect_spec fuel : forall s gaps,
  good s -> (forall l, outcome s l -> (length l < fuel)%nat) ->
  outcome s (map snd (fst (collect fuel c s gaps))).
Proof.
  induction fuel as [|fuel IH]; intros s gaps Hg Hm; [specialize (Hm _ (outcome_ex s)); lia|].
  cbn [collect].
  assert (Hn : (nunfin s <= 2)%nat).
  { unfold nunfin, unfin. destruct (done (f4 s)); destruct (done (f6 s)); lia. }
  (* [advance] changes nothing that good, nunfin or outcome look at *)
  pose proof (next_spec 2 (advance s (hd 0 gaps)) Hg Hn) as HP. unfold next_ok in HP.
  destruct (next 2 c (advance s (hd 0 gaps))) as [[it|] s'].
  - destruct HP as (G' & _ & L').
    assert (Hm' : forall l, outcome s' l -> (length l < fuel)%nat).
    { intros l Hl. specialize (Hm _ (L' l Hl)). cbn [emitted app length] in Hm. lia. }
    specialize (IH s' (tl gaps) G' Hm'). destruct (collect fuel c s' (tl gaps)) as [l s''].
    exact (L' _ IH).
  - destruct HP as (_ & C' & L'). exact (L' _ (outcome_closed s' (C' eq_refl))).
Qed.

End Machine.

Definition items_of (o : output) : list item :=
  match o with Ok (l, _, _) => map snd l | _ => [] end.

(* [poss] with the configuration as an argument, for the statements outside the section.  The
   two are tied by conversion only: [dom_stream] hands the [poss c] of [collect_spec] over as
   [possible c]. *)
Definition possible (c : cfg) (d : N) (r a : answer) : Prop := a = r \/ (timeout c < d /\ a = Err 1).

Lemma block_len c fam d r a : possible c d r a -> (length (block fam a) <= answer_len r)%nat.
Proof.
  intros [->|[_ ->]]; [|cbn; lia]. destruct r; cbn; rewrite ?map_length; lia.
Qed.

Lemma spec_length c A4 A6 ord :
  possible c (d4 c) (r4 c) A4 -> possible c (d6 c) (r6 c) A6 ->
  (length (spec A4 A6 ord) < fuel_for c)%nat.
Proof.
  intros P4 P6. pose proof (block_len c 4 _ _ _ P4). pose proof (block_len c 6 _ _ _ P6).
  unfold spec, fuel_for. rewrite app_length, map_length.
  set (oks := if ord then _ else _).
  assert (length (spec_tail A4 A6 oks) <= 1)%nat
    by (unfold spec_tail; destruct (err_of A4), (err_of A6), oks; cbn; auto).
  subst oks. destruct ord; rewrite app_length; lia.
Qed.

(* a resolver answer Panic counts as an empty, error-free answer on both sides *)
Theorem dom_stream c gaps :
  exists A4 A6 ord, possible c (d4 c) (r4 c) A4 /\ possible c (d6 c) (r6 c) A6 /\
    items_of (model (Dom c gaps)) = spec A4 A6 ord.
Proof.
  assert (G : good c init_state) by (apply good1_good; reflexivity).
  assert (M : forall l, outcome c init_state l -> (length l < fuel_for c)%nat).
  { intros l (A4 & A6 & ord & P4 & P6 & ->). rewrite expected_init. now apply spec_length. }
  destruct (collect_spec c (fuel_for c) init_state gaps G M) as (A4 & A6 & ord & P4 & P6 & E).
  exists A4, A6, ord. split; [exact P4|]. split; [exact P6|].
  cbn [model]. destruct (collect (fuel_for c) c init_state gaps) as [l s]. cbn [items_of fst] in *.
  rewrite E. apply expected_init.
Qed.

Lemma stream_spec c gaps :
  r4 c <> Panic -> r6 c <> Panic ->
  exists A4 A6 ord, possible c (d4 c) (r4 c) A4 /\ possible c (d6 c) (r6 c) A6 /\
    items_of (model (Dom c gaps)) = spec A4 A6 ord.
Proof. intros _ _. apply dom_stream. Qed.

Definition addrs_of (l : list item) : list addr :=
  flat_map (fun it => match it with IAddr a => [a] | _ => [] end) l.

(* the [oks] that [spec] binds with a [let]: [spec_eq] holds by conversion, and the theorems of
   Props/C35.v that spell the [if] out meet [spec_addrs] and [spec_shape] the same way *)
Definition oks_of (a4 a6 : answer) (ord : bool) : list addr :=
  if ord then block 4 a4 ++ block 6 a6 else block 6 a6 ++ block 4 a4.

Lemma spec_eq a4 a6 ord :
  spec a4 a6 ord = map IAddr (oks_of a4 a6 ord) ++ spec_tail a4 a6 (oks_of a4 a6 ord).
Proof. reflexivity. Qed.

Lemma spec_shape a4 a6 ord :
  exists t, spec a4 a6 ord = map IAddr (oks_of a4 a6 ord) ++ t /\
    (t = [] \/ t = [INoResp] \/ exists x y, t = [IBoth x y]).
Proof.
  exists (spec_tail a4 a6 (oks_of a4 a6 ord)). split; [reflexivity|].
  unfold spec_tail. destruct (err_of a4), (err_of a6), (oks_of a4 a6 ord); eauto.
Qed.

Lemma spec_addrs a4 a6 ord : addrs_of (spec a4 a6 ord) = oks_of a4 a6 ord.
Proof.
  destruct (spec_shape a4 a6 ord) as (t & -> & Ht). unfold addrs_of. rewrite flat_map_app.
  replace (flat_map _ t) with (@nil addr) by (destruct Ht as [->|[->|(x & y & ->)]]; reflexivity).
  rewrite app_nil_r. induction (oks_of a4 a6 ord) as [|a l IH]; cbn; now rewrite ?IH.
Qed.

Lemma in_spec_err it a4 a6 ord : (forall a, it <> IAddr a) ->
  In it (spec a4 a6 ord) <-> In it (spec_tail a4 a6 (oks_of a4 a6 ord)).
Proof.
  intros H. rewrite spec_eq, in_app_iff, in_map_iff.
  split; [intros [(a & E & _)|Hin]|now right]; [now destruct (H a)|exact Hin].
Qed.

Lemma spec_both a4 a6 ord x y :
  In (IBoth x y) (spec a4 a6 ord) <-> err_of a4 = Some x /\ err_of a6 = Some y.
Proof.
  rewrite in_spec_err by discriminate. unfold spec_tail.
  destruct (err_of a4), (err_of a6), (oks_of a4 a6 ord); cbn; intuition congruence.
Qed.

Lemma spec_tail_noresp a4 a6 oks :
  In INoResp (spec_tail a4 a6 oks) ->
  spec_tail a4 a6 oks = [INoResp] /\ ~ (exists x y, err_of a4 = Some x /\ err_of a6 = Some y) /\ oks = [].
Proof. unfold spec_tail. destruct (err_of a4), (err_of a6), oks; cbn; firstorder congruence. Qed.

Lemma spec_noresp a4 a6 ord :
  In INoResp (spec a4 a6 ord) <->
  (spec a4 a6 ord = [INoResp] /\ ~ (exists x y, err_of a4 = Some x /\ err_of a6 = Some y) /\
   block 4 a4 = [] /\ block 6 a6 = []).
Proof.
  split; [|intros (E & _); rewrite E; now left].
  rewrite in_spec_err by discriminate. intros H. apply spec_tail_noresp in H as (T & N & O).
  rewrite spec_eq, T, O. split; [reflexivity|]. split; [exact N|].
  unfold oks_of in O. destruct ord; apply app_eq_nil in O; tauto.
Qed.

Lemma item_eqb_refl it : item_eqb it it = true.
Proof. destruct it as [[f a]|x y| |]; cbn; unfold addr_eqb; cbn; rewrite ?N.eqb_refl; reflexivity. Qed.

Lemma candidates_in c d r a : possible c d r a -> In a (candidates c d r).
Proof.
  unfold candidates. intros [->|[H ->]].
  - destruct (timeout c <? d); now left.
  - apply N.ltb_lt in H. rewrite H. right. now left.
Qed.

Lemma model_monitor i : monitor i (model i) = true.
Proof.
  unfold monitor. destruct (negb (wf i)); [reflexivity|].
  destruct i as [c gaps|a gaps|gaps].
  - destruct (dom_stream c gaps) as (A4 & A6 & ord & P4 & P6 & E).
    cbn [model] in *. destruct (collect _ _ _ _) as [l s]. cbn [items_of] in E.
    apply existsb_exists. exists A4. split; [now apply candidates_in|].
    apply existsb_exists. exists A6. split; [now apply candidates_in|].
    rewrite E. destruct ord; rewrite (list_eqb_refl item_eqb item_eqb_refl); [reflexivity|apply orb_true_r].
  - change (list_eqb item_eqb [IAddr a] [IAddr a] = true). apply list_eqb_refl, item_eqb_refl.
  - reflexivity.
Qed.

Lemma ip_literal_direct a gaps : items_of (model (Lit a gaps)) = [IAddr a].
Proof. reflexivity. Qed.
Lemma missing_host gaps : items_of (model (NoHost gaps)) = [IMissing].
Proof. reflexivity. Qed.

Example both_blocks :
  items_of (model (Dom (mkC 100 30 (Ok [1; 2]) 10 (Ok [3])) [])) = [IAddr (6, 3); IAddr (4, 1); IAddr (4, 2)].
Proof. vm_compute. reflexivity. Qed.
Example both_fail :
  items_of (model (Dom (mkC 100 30 (Err 2) 200 (Ok [3])) [])) = [IBoth 2 1].
Proof. vm_compute. reflexivity. Qed.
Example nothing_found :
  items_of (model (Dom (mkC 100 30 (Ok []) 10 (Err 4)) [])) = [INoResp].
Proof. vm_compute. reflexivity. Qed.
(* a late poll: the v6 lookup, past its timeout, still answers *)
Example late_poll :
  items_of (model (Dom (mkC 93 93 (Ok [1; 2]) 186 (Ok [7])) [0; 167; 0; 42])) = [IAddr (4, 1); IAddr (4, 2); IAddr (6, 7)].
Proof. vm_compute. reflexivity. Qed.
