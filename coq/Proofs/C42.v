(* C42: [connect] as a table of nine outcomes, from which the properties and the monitor are
   read off. *)
From V Require Import Lib.Base Model.C42.
Import C42.
Open Scope N_scope.

(* the [m] indices from [i] on, which a fold started at [i] logs: the folds recurse with a moving
   start index, so their equations are proved for every [i] and read at 0, where [idxs] is the
   monitor's [prefix_through] *)
Definition idxs (i : N) (m : nat) : list N := map (fun k => i + N.of_nat k) (seq 0 m).

Lemma idxs_S i m : idxs i (S m) = i :: idxs (i + 1) m.
Proof.
  unfold idxs. cbn [seq map]. f_equal; [lia|].
  rewrite <- seq_shift, map_map. apply map_ext. intros k. lia.
Qed.

Lemma idxs_0 m : idxs 0 m = map N.of_nat (seq 0 m).
Proof. unfold idxs. apply map_ext. intros; lia. Qed.

Lemma before_fold_gen hs : forall i,
  before_fold i hs = (idxs i (Nat.min (S (lead_before hs)) (length hs)), all_before hs).
Proof.
  induction hs as [|[b a] r IH]; intros i; [reflexivity|].
  cbn [before_fold lead_before length all_before forallb fst]. destruct b.
  - rewrite IH. cbn [andb]. rewrite <- Nat.succ_min_distr, idxs_S. reflexivity.
  - cbn [andb]. replace (Nat.min 1 (S (length r))) with 1%nat by lia. rewrite idxs_S. reflexivity.
Qed.

Lemma after_fold_gen hs : forall i,
  after_fold i hs = (idxs i (Nat.min (S (lead_after hs)) (length hs)), first_code hs).
Proof.
  induction hs as [|[b [c|]] r IH]; intros i; [reflexivity| |].
  - cbn [after_fold lead_after length first_code].
    replace (Nat.min 1 (S (length r))) with 1%nat by lia. rewrite idxs_S. reflexivity.
  - cbn [after_fold lead_after length first_code]. rewrite IH.
    rewrite <- Nat.succ_min_distr, idxs_S. reflexivity.
Qed.

Lemma before_fold_eq hs :
  before_fold 0 hs = (prefix_through (lead_before hs) (length hs), all_before hs).
Proof. rewrite before_fold_gen, idxs_0. reflexivity. Qed.

Lemma after_fold_eq hs :
  after_fold 0 hs = (prefix_through (lead_after hs) (length hs), first_code hs).
Proof. rewrite after_fold_gen, idxs_0. reflexivity. Qed.

Lemma all_after_first_code hs :
  all_after hs = match first_code hs with None => true | Some _ => false end.
Proof. induction hs as [|[b [c|]] r IH]; cbn in *; auto. Qed.

Lemma all_before_lead hs : all_before hs = Nat.eqb (lead_before hs) (length hs).
Proof.
  induction hs as [|[[|] a] r IH]; cbn [all_before forallb fst lead_before length andb] in *; auto.
Qed.

Lemma all_after_lead hs : all_after hs = Nat.eqb (lead_after hs) (length hs).
Proof.
  induction hs as [|[b [c|]] r IH]; cbn [all_after forallb snd lead_after length andb] in *; auto.
Qed.

Lemma lead_before_reject hs :
  all_before hs = false -> exists a, nth_error hs (lead_before hs) = Some (false, a).
Proof.
  induction hs as [|[[|] a] r IH]; cbn [all_before forallb fst lead_before andb nth_error] in *;
    intros H; [discriminate | auto | eauto].
Qed.

Lemma lead_after_reject hs c :
  first_code hs = Some c -> exists b, nth_error hs (lead_after hs) = Some (b, Some c).
Proof.
  induction hs as [|[b [c'|]] r IH]; cbn [first_code lead_after nth_error] in *; intros H;
    [discriminate | inversion H; subst; eauto | auto].
Qed.

Lemma lN_eqb_refl l : lN_eqb l l = true.
Proof. apply list_eqb_refl, N.eqb_refl. Qed.

Lemma log_ok_self k n : log_ok k n (prefix_through k n) = true.
Proof. unfold log_ok. destruct (prefix_through k n); [reflexivity|]. apply lN_eqb_refl. Qed.

(* The ways a connect ends, in the order in which connect_with_opts and then conn_from_noq_conn
   decide them.  The indices are the six selectors: destructing [connect_outcome i] puts their
   values into the goal.  bl, dl, al: the folds' call logs. *)
Inductive outcome (bl dl al : list N) :
  bool -> bool -> bool -> alpn -> option N -> option N -> out -> Prop :=
| EndClosed b s a fd fa :
    outcome bl dl al true b s a fd fa (mkOut [] [] (DPre 1) [] [] ANoIncoming)
| EndBeforeReject s a fd fa :
    outcome bl dl al false false s a fd fa (mkOut bl [] (DPre 2) [] [] ANoIncoming)
| EndSelf a fd fa :
    outcome bl dl al false true true a fd fa (mkOut bl [] (DPre 3) [] [] ANoIncoming)
| EndEmptyAlpn fd fa :
    outcome bl dl al false true false AlpnEmpty fd fa (mkOut bl [] (DPre 4) [] [] ANoIncoming)
| EndUnserved fd fa :
    outcome bl dl al false true false AlpnUnserved fd fa (mkOut bl [] DHandshake [] [] AHandshake)
| EndBothReject c c' :
    outcome bl dl al false true false AlpnServed (Some c) (Some c')
      (mkOut bl dl DRejected [] al ARejected)
| EndDialerReject c :
    outcome bl dl al false true false AlpnServed (Some c) None
      (mkOut bl dl DRejected [] al (AClosed c))
| EndAcceptorReject c :
    outcome bl dl al false true false AlpnServed None (Some c)
      (mkOut bl dl (DPeerClosed c) [] al ARejected)
| EndEstablished :
    outcome bl dl al false true false AlpnServed None None
      (mkOut bl dl DEstablished [] al (AClosed done_code)).

Lemma connect_outcome i :
  outcome (prefix_through (lead_before (dhooks i)) (length (dhooks i)))
          (prefix_through (lead_after (dhooks i)) (length (dhooks i)))
          (prefix_through (lead_after (ahooks i)) (length (ahooks i)))
          (closed i) (all_before (dhooks i)) (to_self i) (alpn_kind i)
          (first_code (dhooks i)) (first_code (ahooks i)) (connect i).
Proof.
  unfold connect. rewrite before_fold_eq, !after_fold_eq.
  destruct (closed i); [constructor|].
  destruct (all_before (dhooks i)); [|constructor].
  destruct (to_self i); [constructor|].
  destruct (alpn_kind i); [|constructor..].
  destruct (first_code (dhooks i)), (first_code (ahooks i)); constructor.
Qed.

Lemma established_iff_all_accept i :
  d_res (connect i) = DEstablished <->
  closed i = false /\ to_self i = false /\ alpn_kind i = AlpnServed /\
  all_before (dhooks i) = true /\ all_after (dhooks i) = true /\ all_after (ahooks i) = true.
Proof.
  rewrite !all_after_first_code.
  destruct (connect_outcome i); cbn;
    (split; [intros [=] | intros (? & ? & ? & ? & ? & ?)]); try discriminate; auto 7.
Qed.

Lemma acceptor_established_only_if_all_accept i :
  first_code (dhooks i) <> Some done_code ->
  a_res (connect i) = AClosed done_code ->
  closed i = false /\ to_self i = false /\ alpn_kind i = AlpnServed /\
  all_before (dhooks i) = true /\ all_after (dhooks i) = true /\ all_after (ahooks i) = true.
Proof.
  (* the acceptor sees the normal end only when the dialer is established *)
  intros Hd Ha. apply established_iff_all_accept. revert Hd Ha.
  destruct (connect_outcome i); cbn; congruence.
Qed.

Lemma first_reject_stops hs :
  before_fold 0 hs = (prefix_through (lead_before hs) (length hs),
                      Nat.eqb (lead_before hs) (length hs)) /\
  after_fold 0 hs = (prefix_through (lead_after hs) (length hs), first_code hs) /\
  (first_code hs = None <-> lead_after hs = length hs).
Proof.
  split; [rewrite before_fold_eq, all_before_lead; reflexivity|].
  split; [apply after_fold_eq|].
  rewrite <- Nat.eqb_eq, <- all_after_lead, all_after_first_code.
  destruct (first_code hs); intuition congruence.
Qed.

Lemma self_and_empty_alpn_fail i :
  to_self i = true \/ alpn_kind i = AlpnEmpty ->
  (exists k, d_res (connect i) = DPre k /\ 1 <= k <= 4) /\
  a_res (connect i) = ANoIncoming /\ d_after (connect i) = [] /\ a_after (connect i) = [].
Proof.
  destruct (connect_outcome i); cbn; intros [H|H]; try discriminate;
    (split; [eexists; split; [reflexivity|lia] | auto]).
Qed.

Lemma before_reject_stops i :
  closed i = false -> all_before (dhooks i) = false ->
  d_res (connect i) = DPre 2 /\ a_res (connect i) = ANoIncoming /\
  d_after (connect i) = [] /\ a_after (connect i) = [] /\
  d_before (connect i) = prefix_through (lead_before (dhooks i)) (length (dhooks i)).
Proof. destruct (connect_outcome i); cbn; intros [=] [=]; auto 6. Qed.

Lemma after_reject_closes_with_code i :
  closed i = false -> all_before (dhooks i) = true -> to_self i = false -> alpn_kind i = AlpnServed ->
  (forall c, first_code (dhooks i) = Some c ->
     d_res (connect i) = DRejected /\
     (a_res (connect i) = AClosed c \/ a_res (connect i) = ARejected)) /\
  (forall c, first_code (dhooks i) = None -> first_code (ahooks i) = Some c ->
     d_res (connect i) = DPeerClosed c /\ a_res (connect i) = ARejected).
Proof. destruct (connect_outcome i); cbn; intros [=] [=] [=] [=]; intuition congruence. Qed.

Lemma connect_alt_same_dialer i y :
  connect_alt i = Some y ->
  d_res y = d_res (connect i) /\ d_before y = d_before (connect i) /\ d_after y = d_after (connect i) /\
  d_res y = DRejected /\ a_after y = [].
Proof.
  unfold connect_alt. rewrite before_fold_eq, after_fold_eq.
  destruct (connect_outcome i); cbn; intros [= <-]; cbn; auto.
Qed.

Lemma model_monitor i : monitor i (model i) = true.
Proof.
  unfold model, monitor. rewrite !all_after_first_code.
  destruct (connect_outcome i);
    cbn [d_res a_res d_before d_after a_before a_after negb andb orb is_pre no_incoming
         dial_eqb acc_eqb opt_eqb];
    rewrite ?log_ok_self, ?lN_eqb_refl, ?N.eqb_refl; cbn [andb orb negb log_ok];
    try reflexivity.
  (* stopped before the self and ALPN tests: their conjunct holds either way *)
  - now destruct (s || _).
  - now destruct (s || _).
  (* the dialer's reject code may be the normal-end code *)
  - now destruct (c =? done_code).
Qed.

Example ex_established :
  connect (mkIn false false AlpnServed [(true, None); (true, None)] [(true, None)]) =
  mkOut [0; 1] [0; 1] DEstablished [] [0] (AClosed 99).
Proof. vm_compute. reflexivity. Qed.

Example ex_before_reject :
  connect (mkIn false false AlpnServed [(true, None); (false, None); (true, None)] [(true, None)]) =
  mkOut [0; 1] [] (DPre 2) [] [] ANoIncoming.
Proof. vm_compute. reflexivity. Qed.

Example ex_acceptor_reject :
  connect (mkIn false false AlpnServed [(true, None)] [(true, None); (true, Some 17); (true, Some 18)]) =
  mkOut [0] [0] (DPeerClosed 17) [] [0; 1] ARejected.
Proof. vm_compute. reflexivity. Qed.

Example ex_order : (* closed beats hooks beats self beats empty ALPN *)
  d_res (connect (mkIn true true AlpnEmpty [(false, None)] [])) = DPre 1 /\
  d_res (connect (mkIn true false AlpnEmpty [(false, None)] [])) = DPre 2 /\
  d_res (connect (mkIn true false AlpnEmpty [(true, None)] [])) = DPre 3 /\
  d_res (connect (mkIn false false AlpnEmpty [(true, None)] [])) = DPre 4.
Proof. vm_compute. auto. Qed.

Example mon_rejects :
  let i := mkIn false false AlpnServed [(true, None); (false, None)] [(true, Some 12)] in
  (* established although a hook rejects *)
  monitor i (Ok (mkOut [0; 1] [0; 1] DEstablished [] [0] (AClosed 99))) = false /\
  (* hooks called past the first reject *)
  monitor (mkIn false false AlpnServed [(false, None); (true, None)] [])
          (Ok (mkOut [0; 1] [] (DPre 2) [] [] ANoIncoming)) = false /\
  (* rejected, but the peer saw a handshake *)
  monitor i (Ok (mkOut [0; 1] [] (DPre 2) [] [0] ARejected)) = false /\
  (* wrong close code at the peer *)
  monitor (mkIn false false AlpnServed [] [(true, Some 12)])
          (Ok (mkOut [] [] (DPeerClosed 13) [] [0] ARejected)) = false.
Proof. vm_compute. auto. Qed.
