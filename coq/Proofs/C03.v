(* C03 — relay handshake (Model/C03.v; the properties are read in iroh's terms in Props/C03.v).
   Soundness is read off per-step specifications of the server; completeness for an honest
   client is the completeness clause of the run-time monitor, which the model satisfies for any
   primitives ([serverside_complete]); the theorems about a session with the modelled client,
   under [prims_ok], apply it to the input that client produces ([honest_input]). *)
From V Require Import Lib.Base Lib.Lists Lib.Crypto Lib.Varint Lib.MachineInt Lib.Leb128 Model.C03.
From V Require Import Lib.LiaBool.
From V Require Lib.Dec.
Import C03.
Open Scope N_scope.

Lemma take_n_app n (a b : bytes) : length a = N.to_nat n -> take_n n (a ++ b) = Some (a, b).
Proof.
  intros H. unfold take_n. rewrite (proj2 (N.leb_le _ _)) by (rewrite len_app; unfold len; lia).
  now rewrite firstn_app_length, skipn_app_length.
Qed.

Lemma take_n_exact n (a : bytes) : length a = N.to_nat n -> take_n n a = Some (a, []).
Proof. intros H. apply (take_n_app n a []) in H. now rewrite app_nil_r in H. Qed.

Lemma take_n_some n s a b : take_n n s = Some (a, b) -> s = a ++ b /\ length a = N.to_nat n.
Proof.
  unfold take_n. destruct (n <=? len s) eqn:E; [|discriminate]. intros [= <- <-].
  split; [symmetry; apply firstn_skipn|]. rewrite firstn_length. unfold len in E. lia.
Qed.

Lemma b64_val_sym v : v < 64 -> b64_val (b64_sym v) = Some v.
Proof.
  intros H.
  assert (A : forallb (fun v => match b64_val (b64_sym v) with Some x => x =? v | None => false end)
                      (map N.of_nat (seq 0 64)) = true) by (vm_compute; reflexivity).
  rewrite forallb_forall in A.
  assert (I : In v (map N.of_nat (seq 0 64))).
  { rewrite <- (N2Nat.id v). apply in_map, in_seq. lia. }
  apply A in I. destruct (b64_val (b64_sym v)); [f_equal; lia | discriminate].
Qed.

Lemma list_ind3 {A} (Pr : list A -> Prop) :
  Pr [] -> (forall a, Pr [a]) -> (forall a b, Pr [a; b]) ->
  (forall a b c r, Pr r -> Pr (a :: b :: c :: r)) -> forall l, Pr l.
Proof.
  intros H0 H1 H2 H3. fix F 1. intros [|a [|b [|c r]]]; [exact H0 | apply H1 | apply H2 | apply H3, F].
Qed.

(* bytes a b c regroup into the sextets a/4, y, z, c mod 64; decoding splits y and z at the
   digit boundary (Dec.split_digit) and rejoins each byte (Dec.join_digit).  [lia] takes quotients
   and remainders for unknowns: their bounds come from Dec.digit_bound, which is handed [a < 256],
   read off [byte_ok a], for [a < 4 * 64], [a < 16 * 16] and [a < 64 * 4]. *)
Lemma b64_roundtrip bs : bytes_ok bs = true -> b64_decode (b64_encode bs) = Some bs.
Proof.
  induction bs as [|a|a b|a b c r IH] using list_ind3; intros H.
  - reflexivity.
  - apply andb_prop in H as [Ha%N.ltb_lt _]. cbn [b64_encode b64_decode].
    destruct (Dec.digit_bound a 4 64 Ha) as [A1 A2].
    rewrite !b64_val_sym by (clear -A1 A2; lia).
    rewrite N.mod_mul, N.div_mul, Dec.join_digit by discriminate. reflexivity.
  - apply andb_prop in H as [Ha%N.ltb_lt H]. apply andb_prop in H as [Hb%N.ltb_lt _].
    cbn [b64_encode b64_decode].
    destruct (Dec.digit_bound a 4 64 Ha) as [A1 A2]. destruct (Dec.digit_bound b 16 16 Hb) as [B1 B2].
    rewrite !b64_val_sym by (clear -A1 A2 B1 B2; lia).
    destruct (Dec.split_digit (a mod 4) _ 16 B1) as [-> ->].
    rewrite N.mod_mul, N.div_mul, !Dec.join_digit by discriminate. reflexivity.
  - apply andb_prop in H as [Ha%N.ltb_lt H]. apply andb_prop in H as [Hb%N.ltb_lt H].
    apply andb_prop in H as [Hc%N.ltb_lt H]. cbn [b64_encode b64_decode].
    destruct (Dec.digit_bound a 4 64 Ha) as [A1 A2]. destruct (Dec.digit_bound b 16 16 Hb) as [B1 B2].
    destruct (Dec.digit_bound c 64 4 Hc) as [C1 C2].
    rewrite !b64_val_sym, (IH H) by (clear -A1 A2 B1 B2 C1 C2; lia).
    destruct (Dec.split_digit (a mod 4) _ 16 B1) as [-> ->].
    destruct (Dec.split_digit (b mod 16) _ 4 C1) as [-> ->].
    rewrite !Dec.join_digit. reflexivity.
Qed.

(* a write reads its result off the head of the fault script and advances the world: every
   function that writes is an equation in [wok] and [wr] *)
Definition wok (w : io) : bool := hd 0 (wfl w) =? 0.
Definition wr (w : io) (f : bytes) : io := snd (write_frame w f).

Lemma write_frame_eq w f : write_frame w f = (if wok w then Ok tt else Err E_WS, wr w f).
Proof. reflexivity. Qed.

Lemma wr_ok w f : wok w = true ->
  wr w f = mkIo (out w ++ [f]) (tl (wfl w)) (rds w) (nrd w) (exps w).
Proof. unfold wok, wr, write_frame. fold (hd 0 (wfl w)) (tl (wfl w)). now intros ->%N.eqb_eq. Qed.

Lemma write_ok w f : wok w = true ->
  write_frame w f = (Ok tt, mkIo (out w ++ [f]) (tl (wfl w)) (rds w) (nrd w) (exps w)).
Proof. intros W. now rewrite write_frame_eq, W, (wr_ok _ _ W). Qed.

Lemma wok_nil w : wfl w = [] -> wok w = true.
Proof. unfold wok. now intros ->. Qed.

Lemma wr_out w f : out (wr w f) = out w \/ out (wr w f) = out w ++ [f].
Proof. unfold wr, write_frame. cbn [snd out]. destruct (negb _); auto. Qed.

Lemma wr_prefix w f : exists extra, out (wr w f) = out w ++ extra.
Proof. destruct (wr_out w f) as [-> | ->]; [exists []; now rewrite app_nil_r | eauto]. Qed.

Lemma ft_tag t r : (t <=? TAG_LAST) = true -> frame_type (t :: r) = Ok (t, r).
Proof.
  intros H. unfold frame_type, Varint.decode.
  rewrite N.div_small, N.mod_small by (unfold TAG_LAST in H; lia).
  now rewrite H.
Qed.

Lemma read_cons w f rest ex t p : rds w = RFrame f :: rest -> frame_type f = Ok (t, p) ->
  existsb (N.eqb t) ex = true ->
  read_frame w ex = (Ok (t, p), mkIo (out w) (wfl w) rest (nrd w + 1) (exps w)).
Proof. intros R F X. unfold read_frame. now rewrite R, F, X. Qed.

Lemma read_frame_ok w ex t p w' : read_frame w ex = (Ok (t, p), w') ->
  exists f rest, rds w = RFrame f :: rest /\ frame_type f = Ok (t, p) /\
    existsb (N.eqb t) ex = true /\ w' = mkIo (out w) (wfl w) rest (nrd w + 1) (exps w).
Proof.
  unfold read_frame. destruct (rds w) as [|[f|] rest]; try discriminate.
  destruct (frame_type f) as [[t' p']| |] eqn:F; try discriminate.
  destruct (existsb (N.eqb t') ex) eqn:X; [|discriminate].
  intros [= <- <- <-]. exists f, rest. auto.
Qed.

(* [deny] and [monitor_s] write this match out *)
Definition reason_of (r : option bytes) : bytes := match r with Some r => r | None => NOT_AUTHORIZED end.

(* authorize_if / authorize_with as a table in the access decision and the outcome of the write *)
Definition verdict (a : access) (k : bytes) : res bytes :=
  match a with Allow => Ok k | Deny _ => Err E_DENIED end.
Definition fin_frame (a : access) : bytes :=
  match a with Allow => confirm_frame | Deny r => deny_frame (reason_of r) end.
Definition log_at (a : access) (ok : bool) : list N :=
  match a with Allow => if ok then [1] else [1; 2] | Deny _ => [1] end.
Definition log_after (a : access) : list N := match a with Allow => [1; 2] | Deny _ => [1] end.

Lemma authorize_eq i w k : authorize i w k =
  (if wok w then verdict (s_access i) k else Err E_WS, wr w (fin_frame (s_access i)),
   if s_with i then log_at (s_access i) (wok w) else [],
   if s_with i then log_after (s_access i) else []).
Proof.
  unfold authorize, accept, deny. destruct (s_access i) as [|r]; cbn [fin_frame]; [|fold (reason_of r)];
    rewrite write_frame_eq; destruct (wok w); destruct (s_with i); reflexivity.
Qed.

Lemma authorize_spec i w k r w1 l1 l2 : authorize i w k = (r, w1, l1, l2) ->
  nrd w1 = nrd w /\ exps w1 = exps w /\
  l2 = (if s_with i then match s_access i with Allow => [1; 2] | Deny _ => [1] end else []) /\
  match s_access i with
  | Allow => (r = Ok k /\ out w1 = out w ++ [confirm_frame] /\ l1 = if s_with i then [1] else [])
             \/ (r = Err E_WS /\ l1 = l2 /\ (out w1 = out w \/ out w1 = out w ++ [confirm_frame]))
  | Deny reason => ((r = Err E_DENIED /\ out w1 = out w ++ [deny_frame (reason_of reason)])
                    \/ (r = Err E_WS /\ (out w1 = out w \/ out w1 = out w ++ [deny_frame (reason_of reason)])))
                   /\ l1 = l2
  end.
Proof.
  rewrite authorize_eq. intros [= <- <- <- <-]. do 3 (split; [reflexivity|]).
  destruct (s_access i) as [|reason]; cbn [verdict fin_frame log_at log_after]; destruct (wok w) eqn:W.
  - left. now rewrite (wr_ok _ _ W).
  - right. split; [reflexivity|]. split; [reflexivity|]. apply wr_out.
  - split; [|reflexivity]. left. now rewrite (wr_ok _ _ W).
  - split; [|reflexivity]. right. split; [reflexivity|]. apply wr_out.
Qed.

Lemma authorize_out_prefix i w k r w1 l1 l2 : authorize i w k = (r, w1, l1, l2) ->
  exists extra, out w1 = out w ++ extra.
Proof. rewrite authorize_eq. intros [= _ <- _ _]. apply wr_prefix. Qed.

Lemma authorize_honest i w k : wfl w = [] ->
  exists w1 l1 l2,
    authorize i w k = (verdict (s_access i) k, w1, l1, l2) /\
    out w1 = out w ++ [fin_frame (s_access i)] /\ nrd w1 = nrd w.
Proof.
  intros O%wok_nil.
  rewrite authorize_eq, O, (wr_ok _ _ O). eexists _, _, _. repeat split.
Qed.

Section Server.
Variable P : prims.

Lemma pc_key_point s k r : pc_key P s = Some (k, r) -> is_point P k = true /\ s = k ++ r /\ length k = 32%nat.
Proof.
  unfold pc_key. destruct (take_n 32 s) as [[k' r']|] eqn:T; [|discriminate].
  destruct (is_point P k') eqn:I; [|discriminate]. intros [= <- <-].
  apply take_n_some in T as [T1 T2]. auto.
Qed.

Lemma pc_km_auth_point s k sg suf : pc_km_auth P s = Some (k, sg, suf) -> is_point P k = true.
Proof.
  unfold pc_km_auth. destruct (pc_key P s) as [[k' r]|] eqn:K; [|discriminate].
  destruct (pc_bytes64 r) as [[sg' r']|]; [|discriminate].
  destruct (take_n 16 r') as [[suf' ?]|]; [|discriminate]. intros [= <- <- <-].
  eapply pc_key_point, K.
Qed.

Lemma pc_client_auth_point s k sg : pc_client_auth P s = Some (k, sg) -> is_point P k = true.
Proof.
  unfold pc_client_auth. destruct (pc_key P s) as [[k' r]|] eqn:K; [|discriminate].
  destruct (pc_bytes64 r) as [[sg' r']|]; [|discriminate]. intros [= <- <-].
  eapply pc_key_point, K.
Qed.

(* The client's answer to the challenge [ch] at the head of what is still to be read.  [ch_proof i k]
   below is [signed_reply (s_challenge i) (s_reads i) k] written out, and so is the second conjunct
   of [honest_run]: the proofs pass from one to the other by conversion, with no step that says so. *)
Definition signed_reply (ch : bytes) (reads : list ritem) (k : bytes) : Prop :=
  exists f rest payload sg,
    reads = RFrame f :: rest /\ frame_type f = Ok (TAG_CLIENT_AUTH, payload) /\
    pc_client_auth P payload = Some (k, sg) /\
    verify P k (blake3_derive P DOMAIN_SEP_CHALLENGE ch) sg = true.

Definition km_proof (i : sinput) (k : bytes) : Prop :=
  exists h payload sg km,
    s_header i = Some h /\ b64_decode h = Some payload /\
    pc_km_auth P payload = Some (k, sg, skipn 16 km) /\
    assoc (s_kmt i) k (s_kmd i) = Some km /\
    verify P k (firstn 16 km) sg = true.

Definition ch_proof (i : sinput) (k : bytes) : Prop :=
  exists f rest payload sg,
    s_reads i = RFrame f :: rest /\ frame_type f = Ok (TAG_CLIENT_AUTH, payload) /\
    pc_client_auth P payload = Some (k, sg) /\
    verify P k (blake3_derive P DOMAIN_SEP_CHALLENGE (s_challenge i)) sg = true.

Lemma km_evidence_spec i k : km_evidence P i k = true <-> km_proof i k.
Proof.
  unfold km_evidence, km_proof. split.
  - destruct (s_header i) as [h|]; [|discriminate].
    destruct (b64_decode h) as [bs|] eqn:B; [|discriminate].
    destruct (pc_km_auth P bs) as [[[k' sg] suf]|] eqn:A; [|discriminate].
    intros H. apply andb_prop in H as [H1 H2]. apply bytes_eqb_eq in H1. subst k'.
    destruct (assoc (s_kmt i) k (s_kmd i)) as [km|] eqn:L; [|discriminate].
    apply andb_prop in H2 as [H2 H3]. apply bytes_eqb_eq in H2. subst suf.
    exists h, bs, sg, km. repeat split; auto.
  - intros (h & bs & sg & km & -> & -> & -> & -> & ->).
    now rewrite !bytes_eqb_refl.
Qed.

Lemma ch_evidence_spec i k : ch_evidence P i k = true <-> ch_proof i k.
Proof.
  unfold ch_evidence, ch_proof. split.
  - destruct (s_reads i) as [|[f|] rest]; try discriminate.
    destruct (frame_type f) as [[t p]| |] eqn:F; try discriminate.
    intros H. apply andb_prop in H as [H1 H2]. apply N.eqb_eq in H1. subst t.
    destruct (pc_client_auth P p) as [[k' sg]|] eqn:C; [|discriminate].
    apply andb_prop in H2 as [H2 H3]. apply bytes_eqb_eq in H2. subst k'.
    exists f, rest, p, sg. repeat split; auto.
  - intros (f & rest & p & sg & -> & -> & -> & ->).
    now rewrite bytes_eqb_refl.
Qed.

(* Props/C03.v writes this out in C03_auth_sound, down to the bodies of [km_proof] and [ch_proof]:
   the tie is by conversion *)
Definition proves_possession (i : sinput) (k : bytes) (m : N) : Prop :=
  is_point P k = true /\
  ((m = MECH_KM /\ km_proof i k) \/ (m = MECH_CH /\ ch_proof i k)).

Lemma km_proof_point i k : km_proof i k -> is_point P k = true.
Proof. intros (h & bs & sg & km & _ & _ & H & _). eapply pc_km_auth_point; eauto. Qed.

Lemma signed_reply_point ch reads k : signed_reply ch reads k -> is_point P k = true.
Proof. intros (f & rest & p & sg & _ & _ & H & _). eapply pc_client_auth_point; eauto. Qed.

Lemma km_phase_spec i w ko w' : km_phase P i w = (ko, w') ->
  (out w' = out w /\ wfl w' = wfl w /\ rds w' = rds w /\ nrd w' = nrd w) /\
  match ko with KmOk k => km_evidence P i k = true | _ => True end.
Proof.
  unfold km_phase, km_verify, export, km_evidence.
  destruct (s_header i) as [h|]; [|intros [= <- <-]; auto].
  destruct (b64_decode h) as [bs|]; [|intros [= <- <-]; auto].
  destruct (pc_km_auth P bs) as [[[k' sg] suf]|]; [|intros [= <- <-]; auto].
  destruct (assoc (s_kmt i) k' (s_kmd i)) as [km|] eqn:A; [|intros [= <- <-]; auto].
  destruct (bytes_eqb (skipn 16 km) suf) eqn:S; [|intros [= <- <-]; auto].
  destruct (verify P k' (firstn 16 km) sg) eqn:V; intros [= <- <-]; [|auto].
  rewrite bytes_eqb_refl, A, S, V. auto.
Qed.

Lemma challenge_phase_accepts i w k :
  wok w = true -> signed_reply (s_challenge i) (rds w) k ->
  fst (challenge_phase P i w) = Ok (k, MECH_CH).
Proof.
  intros W (f & rest & p & sg & R & F & C & V). unfold challenge_phase. rewrite write_ok by exact W.
  rewrite (read_cons _ f rest _ TAG_CLIENT_AUTH p) by (try reflexivity; assumption).
  now rewrite C, V.
Qed.

Lemma challenge_phase_ok i w k m w' : challenge_phase P i w = (Ok (k, m), w') ->
  m = MECH_CH /\ signed_reply (s_challenge i) (rds w) k /\
  out w' = out w ++ [challenge_frame (s_challenge i)] /\ nrd w' = nrd w + 1 /\ wfl w' = tl (wfl w).
Proof.
  unfold challenge_phase. rewrite write_frame_eq. destruct (wok w) eqn:W; [|discriminate].
  destruct (read_frame _ [TAG_CLIENT_AUTH]) as [[[t p]| |] w2] eqn:R; try discriminate.
  apply read_frame_ok in R as (f & rest & R1 & R2 & R3 & E).
  destruct (pc_client_auth P p) as [[k' sg]|] eqn:C; [|discriminate].
  destruct (verify P k' _ sg) eqn:V.
  - intros [= <- <- <-]. rewrite E, (wr_ok _ _ W). repeat split.
    exists f, rest, p, sg. repeat split; auto.
    apply existsb_eqb_in in R3 as [<- | []]. exact R2.
  - rewrite write_frame_eq. destruct (wok w2); discriminate.
Qed.

Lemma serverside_sound i w k m w' : serverside P i w = (Ok (k, m), w') ->
  (m = MECH_KM /\ km_evidence P i k = true /\ out w' = out w /\ nrd w' = nrd w /\ wfl w' = wfl w) \/
  (m = MECH_CH /\ signed_reply (s_challenge i) (rds w) k /\
   out w' = out w ++ [challenge_frame (s_challenge i)] /\ nrd w' = nrd w + 1 /\ wfl w' = tl (wfl w)).
Proof.
  unfold serverside. destruct (km_phase P i w) as [ko w1] eqn:K.
  destruct (km_phase_spec _ _ _ _ K) as ((K1 & K2 & K3 & K4) & KO).
  rewrite <- K1, <- K2, <- K3, <- K4.
  destruct ko; try (intros H; right; apply challenge_phase_ok, H); try discriminate.
  intros [= <- <- <-]. left. auto 6.
Qed.

(* [server] as a relation, so that the theorems invert one run rather than unfold it; the access
   step is written out by authorize_eq *)
Inductive server_run (i : sinput) : sout -> Prop :=
| RunAuth k m w :
    serverside P i (io0 (s_reads i) (s_wfaults i)) = (Ok (k, m), w) ->
    server_run i (mkSO (Ok (k, m)) (Some (if wok w then verdict (s_access i) k else Err E_WS))
                       (out (wr w (fin_frame (s_access i)))) (nrd w) (exps w)
                       (if s_with i then log_at (s_access i) (wok w) else [])
                       (if s_with i then log_after (s_access i) else []))
| RunFail r w :
    serverside P i (io0 (s_reads i) (s_wfaults i)) = (r, w) -> (forall x, r <> Ok x) ->
    server_run i (mkSO r None (out w) (nrd w) (exps w) [] []).

Lemma server_runs i : server_run i (server P i).
Proof.
  unfold server. destruct (serverside P i _) as [[[k m]|e|] w] eqn:S;
    [|apply (RunFail i _ _ S); discriminate ..].
  rewrite authorize_eq. exact (RunAuth i k m w S).
Qed.

Theorem auth_sound i k m : so_res (server P i) = Ok (k, m) ->
  proves_possession i k m /\
  (m = MECH_CH -> exists rest, so_written (server P i) = challenge_frame (s_challenge i) :: rest).
Proof.
  destruct (server_runs i) as [k' m' w S | r w S N]; cbn [so_res so_written]; intros H.
  - injection H as -> ->.
    destruct (wr_prefix w (fin_frame (s_access i))) as [extra A].
    apply serverside_sound in S as [(-> & EV & O & _) | (-> & EV & O & _)]; cbn in O.
    + split; [|discriminate]. apply km_evidence_spec in EV.
      split; [eapply km_proof_point; eauto|]. auto.
    + split.
      * split; [eapply signed_reply_point; eauto|]. auto.
      * intros _. exists extra. rewrite A, O. reflexivity.
  - destruct (N _ H).
Qed.

(* unforgeability as an explicit premise: [signed K msg] = "the holder of K's secret key signed msg" *)
Theorem auth_unforgeable (signed : bytes -> bytes -> Prop) :
  (forall K msg sg, verify P K msg sg = true -> signed K msg) ->
  forall i k m, so_res (server P i) = Ok (k, m) ->
  (exists km, assoc (s_kmt i) k (s_kmd i) = Some km /\ signed k (firstn 16 km)) \/
  signed k (blake3_derive P DOMAIN_SEP_CHALLENGE (s_challenge i)).
Proof.
  intros U i k m H. apply auth_sound in H as [[_ [[_ H] | [_ H]]] _].
  - destruct H as (h & bs & sg & km & _ & _ & _ & A & V). left. exists km. eauto.
  - destruct H as (f & rest & p & sg & _ & _ & _ & V). right. eauto.
Qed.

Theorem admitted_is_authenticated i k : so_auth (server P i) = Some (Ok k) ->
  s_access i = Allow /\ (exists m, so_res (server P i) = Ok (k, m)) /\
  exists pre, so_written (server P i) = pre ++ [confirm_frame].
Proof.
  destruct (server_runs i) as [k' m' w S | r w S N]; cbn [so_auth so_res so_written];
    intros H; [|discriminate].
  destruct (wok w) eqn:W; [|discriminate]. destruct (s_access i); [|discriminate].
  injection H as <-. split; [reflexivity|]. split; [eauto|].
  exists (out w). now rewrite (wr_ok _ _ W).
Qed.

Theorem deny_never_admits i reason a : s_access i = Deny reason -> so_auth (server P i) = Some a ->
  ((a = Err E_DENIED /\ exists pre, so_written (server P i) = pre ++ [deny_frame (reason_of reason)])
   \/ a = Err E_WS) /\
  so_log1 (server P i) = so_log2 (server P i) /\ ~ In 2 (so_log2 (server P i)).
Proof.
  intros D. destruct (server_runs i) as [k' m' w S | r w S N];
    cbn [so_auth so_written so_log1 so_log2]; intros H; [|discriminate].
  injection H as <-. rewrite D. cbn [verdict fin_frame log_at log_after]. split; [|split].
  - destruct (wok w) eqn:W; [left|now right]. split; [reflexivity|].
    exists (out w). now rewrite (wr_ok _ _ W).
  - reflexivity.
  - destruct (s_with i); cbn; intuition discriminate.
Qed.

(* authorize_with, once a returned guard is dropped: on_disconnect (2) follows on_connect (1)
   exactly under Allow *)
Theorem guard_balanced i :
  so_log2 (server P i) = [] \/ so_log2 (server P i) = [1] /\ (exists r, s_access i = Deny r)
  \/ so_log2 (server P i) = [1; 2] /\ s_access i = Allow.
Proof.
  destruct (server_runs i) as [k' m' w S | r w S N]; cbn [so_log2]; auto.
  destruct (s_with i); auto. destruct (s_access i); cbn [log_after]; eauto.
Qed.

Lemma last_is_app l f : last_is (l ++ [f]) f = true.
Proof. unfold last_is. rewrite rev_app_distr. cbn. apply bytes_eqb_refl. Qed.

Lemma monitor_s_model i : monitor_s P i (server P i) = true.
Proof.
  unfold monitor_s.
  destruct (server_runs i) as [k m w S | r w S N]; cbn [so_res so_auth so_written so_log2].
  - apply andb_true_intro. split; [apply andb_true_intro; split|].
    + destruct (wr_prefix w (fin_frame (s_access i))) as [extra X]. rewrite X.
      apply serverside_sound in S as [(-> & EV & O & _) | (-> & EV & O & _)]; cbn in O; cbn.
      * exact EV.
      * apply ch_evidence_spec in EV. rewrite EV, O. cbn. apply bytes_eqb_refl.
    + destruct (wok w); [|reflexivity]. destruct (s_access i); [apply bytes_eqb_refl | reflexivity].
    + destruct (s_access i) as [|reason]; [reflexivity|]. cbn [verdict fin_frame log_after].
      destruct (wok w) eqn:W; [|destruct (s_with i); reflexivity].
      rewrite (wr_ok _ _ W). cbn [out]. rewrite last_is_app. destruct (s_with i); reflexivity.
  - destruct r as [x| |]; [exfalso; eapply N; eauto| |]; cbn; destruct (s_access i); reflexivity.
Qed.

Lemma client_header_io sk kmt kmd w h w' : client_header P sk kmt kmd w = (h, w') ->
  out w' = out w /\ wfl w' = wfl w /\ rds w' = rds w /\ nrd w' = nrd w.
Proof. unfold client_header, export. destruct (assoc kmt _ kmd); intros [= <- <-]; auto. Qed.

Lemma client_finish_ok t p reason : client_finish t p = (Ok tt, reason) -> t = TAG_CONFIRM.
Proof.
  unfold client_finish. destruct (t =? TAG_CONFIRM) eqn:T; [intros _; now apply N.eqb_eq|].
  destruct (pc_string p); discriminate.
Qed.

Lemma monitor_c_model i : monitor_c i (client P i) = true.
Proof.
  unfold monitor_c, client.
  destruct (client_header P (c_sk i) (c_kmt i) (c_kmd i) _) as [h w0] eqn:H.
  apply client_header_io in H as (_ & _ & R0 & N0). cbn in R0, N0.
  destruct (clientside P (c_sk i) w0) as [[r reason] w] eqn:C. cbn [co_res co_nreads].
  destruct r as [[]| |]; auto.
  unfold clientside in C.
  destruct (read_frame w0 _) as [[[t p]| |] w1] eqn:R1; try discriminate.
  apply read_frame_ok in R1 as (f & rest & A1 & A2 & _ & E1).
  rewrite R0 in A1.
  destruct (t =? TAG_CHALLENGE) eqn:T.
  - destruct (take_n 16 p) as [[ch ?]|]; [|discriminate].
    rewrite write_frame_eq in C. destruct (wok w1); [|discriminate].
    destruct (read_frame _ _) as [[[t' p']| |] w3] eqn:R2; try discriminate.
    apply read_frame_ok in R2 as (f' & rest' & B1 & B2 & _ & ->).
    injection C as C <-. apply client_finish_ok in C. subst t'.
    rewrite E1 in B1 |- *. cbn [wr snd write_frame rds nrd] in B1 |- *. subst rest.
    rewrite N0, A1. change (N.to_nat (0 + 1 + 1) - 1)%nat with 1%nat. cbn [nth_error].
    rewrite B2. reflexivity.
  - injection C as C <-. apply client_finish_ok in C. subst t.
    rewrite E1. cbn [nrd]. rewrite N0, A1. change (N.to_nat (0 + 1) - 1)%nat with 0%nat. cbn [nth_error].
    rewrite A2. reflexivity.
Qed.

Lemma expected_mech_none_r i k ckm : assoc (s_kmt i) k (s_kmd i) = None -> expected_mech i k ckm MECH_CH = true.
Proof. intros H. unfold expected_mech. rewrite H. now destruct ckm. Qed.

(* speaks of the exported material only, not of [P]: outside the section it is [mech_spec i k ckm m] *)
Definition mech_spec (i : sinput) (k : bytes) (ckm : option bytes) (m : N) : Prop :=
  (m = MECH_KM \/ m = MECH_CH) /\
  (forall a, ckm = Some a -> assoc (s_kmt i) k (s_kmd i) = Some a -> m = MECH_KM) /\
  ((ckm = None \/ assoc (s_kmt i) k (s_kmd i) = None \/
    exists a b, ckm = Some a /\ assoc (s_kmt i) k (s_kmd i) = Some b /\ skipn 16 a <> skipn 16 b) ->
   m = MECH_CH).

Lemma expected_mech_spec i k ckm m : expected_mech i k ckm m = true <-> mech_spec i k ckm m.
Proof.
  unfold expected_mech, mech_spec, MECH_KM, MECH_CH.
  destruct ckm as [a|]; destruct (assoc (s_kmt i) k (s_kmd i)) as [b|].
  2-4: split; [intros ->%N.eqb_eq | intros (_ & _ & H); apply N.eqb_eq, H; auto].
  2-4: split; [now right|]; split; [discriminate|reflexivity].
  destruct (bytes_eqb a b) eqn:E1.
  - apply bytes_eqb_eq in E1. subst b. split.
    + intros ->%N.eqb_eq. split; [now left|]. split; [reflexivity|].
      intros [H|[H|(x & y & H1 & H2 & H3)]]; try discriminate. congruence.
    + intros (_ & H & _). apply N.eqb_eq, (H a); reflexivity.
  - apply bytes_eqb_neq in E1.
    destruct (bytes_eqb (skipn 16 a) (skipn 16 b)) eqn:E2.
    + apply bytes_eqb_eq in E2. split.
      * intros H. split; [|split; [intros x [= <-] [= <-]; contradiction|]].
        -- apply orb_prop in H as [H|H]; apply N.eqb_eq in H; auto.
        -- intros [H1|[H1|(x & y & H1 & H2 & H3)]]; try discriminate. congruence.
      * intros ([-> | ->] & _); reflexivity.
    + apply bytes_eqb_neq in E2. split.
      * intros ->%N.eqb_eq. split; [now right|]. split; [intros x [= <-] [= <-]; contradiction|reflexivity].
      * intros (_ & _ & H). apply N.eqb_eq, H. right. right. eauto.
Qed.

Definition honest_run (i : sinput) (k : bytes) (ckm : option bytes) : Prop :=
  match ckm with
  | None => s_header i = None
  | Some km => exists h payload sg,
      s_header i = Some h /\ b64_decode h = Some payload /\
      pc_km_auth P payload = Some (k, sg, skipn 16 km) /\ verify P k (firstn 16 km) sg = true
  end /\
  (exists f rest payload sg,
     s_reads i = RFrame f :: rest /\ frame_type f = Ok (TAG_CLIENT_AUTH, payload) /\
     pc_client_auth P payload = Some (k, sg) /\
     verify P k (blake3_derive P DOMAIN_SEP_CHALLENGE (s_challenge i)) sg = true) /\
  (s_wfaults i = [] \/ exists r, s_wfaults i = 0 :: r).

Lemma first_write_ok_spec i :
  first_write_ok i = true <-> (s_wfaults i = [] \/ exists r, s_wfaults i = 0 :: r).
Proof.
  unfold first_write_ok. destruct (s_wfaults i) as [|c r]; [intuition|].
  rewrite N.eqb_eq. split; [intros ->; eauto|]. intros [H|(r' & H)]; congruence.
Qed.

Lemma honest_pre_spec i k ckm : honest_pre P i k ckm = true <-> honest_run i k ckm.
Proof.
  unfold honest_pre, honest_run. apply andb_assoc_iff.
  apply andb_iff; [|apply andb_iff; [apply ch_evidence_spec | apply first_write_ok_spec]].
  destruct ckm as [km|]; [|destruct (s_header i); intuition congruence].
  unfold km_header_of. split.
  - destruct (s_header i) as [h|]; [|discriminate].
    destruct (b64_decode h) as [bs|] eqn:B; [|discriminate].
    destruct (pc_km_auth P bs) as [[[k' sg] suf]|] eqn:E; [|discriminate].
    intros H. apply andb_prop in H as [H V]. apply andb_prop in H as [E1 E2].
    apply bytes_eqb_eq in E1, E2. subst k' suf. exists h, bs, sg. auto.
  - intros (h & bs & sg & -> & -> & -> & ->). now rewrite !bytes_eqb_refl.
Qed.

Lemma honest_ok_spec i k ckm o :
  honest_ok P i k ckm o = true <->
  (honest_run i k ckm -> exists m, so_res o = Ok (k, m) /\ mech_spec i k ckm m).
Proof.
  unfold honest_ok. apply impb_iff; [apply honest_pre_spec|]. eapply iff_trans.
  { apply (ok_iff _ _ (fun p => fst p = k /\ mech_spec i k ckm (snd p))). intros [k' m].
    apply andb_iff; [apply bytes_eqb_iff | apply expected_mech_spec]. }
  split.
  - intros ([k' m] & E & <- & M). exists m. exact (conj E M).
  - intros (m & E & M). exists (k, m). auto.
Qed.

(* for every P, without prims_ok: honesty is a premise on the input (signatures that verify) *)
Theorem serverside_complete i k ckm : honest_run i k ckm ->
  exists m, fst (serverside P i (io0 (s_reads i) (s_wfaults i))) = Ok (k, m) /\ mech_spec i k ckm m.
Proof.
  intros (HH & CR & FW).
  (* whenever the header step does not settle it, the challenge round admits k; that meets the
     specification unless client and relay export the same material *)
  assert (CH : forall es, (forall a, ckm = Some a -> assoc (s_kmt i) k (s_kmd i) <> Some a) ->
             exists m, fst (challenge_phase P i (mkIo [] (s_wfaults i) (s_reads i) 0 es)) = Ok (k, m) /\
                       mech_spec i k ckm m).
  { intros es N. exists MECH_CH. split.
    - apply challenge_phase_accepts; [|exact CR]. unfold wok. cbn [wfl]. now destruct FW as [-> | (r & ->)].
    - split; [now right|]. split; [intros a C A; destruct (N a C A)|reflexivity]. }
  unfold serverside, km_phase, io0. destruct ckm as [a|].
  - destruct HH as (h & bs & sg & -> & -> & -> & V). unfold km_verify, export. cbn [out wfl rds nrd exps].
    destruct (assoc (s_kmt i) k (s_kmd i)) as [b|] eqn:A.
    + destruct (bytes_eqb (skipn 16 b) (skipn 16 a)) eqn:S.
      * destruct (verify P k (firstn 16 b) sg) eqn:Vb.
        -- exists MECH_KM. split; [reflexivity|]. split; [now left|]. split; [reflexivity|].
           apply bytes_eqb_eq in S. intros [H|[H|(x & y & [= <-] & H & N)]]; congruence.
        -- apply CH. intros x [= <-] E. congruence.
      * apply CH. intros x [= <-] E. apply bytes_eqb_neq in S. congruence.
    + apply CH. congruence.
  - rewrite HH. apply CH. intros x [=].
Qed.

Lemma so_res_server i : so_res (server P i) = fst (serverside P i (io0 (s_reads i) (s_wfaults i))).
Proof. destruct (server_runs i) as [k m w S | r w S N]; cbn [so_res]; now rewrite S. Qed.

Lemma honest_ok_model i k ckm : honest_ok P i k ckm (server P i) = true.
Proof. apply honest_ok_spec. rewrite so_res_server. apply serverside_complete. Qed.

Lemma clientside_final sk w f rest t p :
  rds w = RFrame f :: rest -> frame_type f = Ok (t, p) -> t = TAG_CONFIRM \/ t = TAG_DENY ->
  clientside P sk w = (client_finish t p, mkIo (out w) (wfl w) rest (nrd w + 1) (exps w)).
Proof.
  intros R F T. unfold clientside.
  rewrite (read_cons _ f rest _ t p R F) by (destruct T as [-> | ->]; reflexivity).
  now destruct T as [-> | ->].
Qed.

Lemma clientside_challenged sk w ch f rest t p :
  length ch = 16%nat -> wfl w = [] ->
  rds w = RFrame (challenge_frame ch) :: RFrame f :: rest ->
  frame_type f = Ok (t, p) -> t = TAG_CONFIRM \/ t = TAG_DENY ->
  clientside P sk w =
  (client_finish t p, mkIo (out w ++ [client_auth_frame P sk ch]) [] rest (nrd w + 1 + 1) (exps w)).
Proof.
  intros L W R F T. unfold clientside.
  rewrite (read_cons _ _ _ _ TAG_CHALLENGE ch R (ft_tag TAG_CHALLENGE ch eq_refl)) by reflexivity.
  change (TAG_CHALLENGE =? TAG_CHALLENGE) with true. cbv iota.
  rewrite take_n_exact by (rewrite L; reflexivity).
  rewrite write_ok by apply wok_nil, W.
  rewrite (read_cons _ f rest _ t p);
    [|reflexivity | exact F | destruct T as [-> | ->]; reflexivity].
  cbn [out wfl nrd exps]. now rewrite W.
Qed.

End Server.

Theorem model_satisfies_monitor : forall i, monitor i (model i) = true.
Proof.
  intros [t s | t c | t s k ckm]; cbn [monitor model].
  - apply monitor_s_model.
  - apply monitor_c_model.
  - rewrite monitor_s_model, honest_ok_model. reflexivity.
Qed.

(* The round trip is proved in Lib.Leb128.  The encoder here is leb_enc word for word, hence
   convertible to it; the decoder carries the group number i where leb_dec carries the weight
   2^(7i) and the sum so far, and its last-byte test is i = 9. *)
Lemma pc_varint_leb fuel : forall i acc s v r, (N.to_nat i + fuel = 10)%nat ->
  leb_dec fuel 1 (2 ^ (7 * i)) acc s = Ok (v, r) ->
  exists u, pc_varint_aux fuel i s = Some (u, r) /\ v = acc + u.
Proof.
  induction fuel as [|f IH]; intros i acc [|b t] v r Hi; try discriminate.
  cbn [leb_dec pc_varint_aux].
  replace (i =? 9) with (match f with O => true | _ => false end) by (destruct f; lia).
  destruct (b <? 128).
  - destruct (_ && _); [discriminate|]. intros [= <- <-]. eauto.
  - replace (2 ^ (7 * i) * 128) with (2 ^ (7 * (i + 1)))
      by now rewrite N.mul_add_distr_l, N.pow_add_r.
    intros H. apply IH in H as (u & -> & ->); [|lia].
    eexists. split; [reflexivity|]. symmetry. apply N.add_assoc.
Qed.

Lemma pc_varint_roundtrip n r : n < 2 ^ 64 -> pc_varint (pc_varint_enc n ++ r) = Some (n, r).
Proof.
  intros H. change (pc_varint_enc n) with (varint_u64_enc n).
  (* [2 ^ 64] is [N.succ U64_MAX] by conversion *)
  pose proof (varint_u64_roundtrip n r (proj1 (N.lt_succ_r n U64_MAX) H)) as E.
  apply (pc_varint_leb 10 0 0) in E as (u & E & ->); [exact E|reflexivity].
Qed.

Lemma pc_string_roundtrip s : utf8_ok s = true -> len s < 2 ^ 64 ->
  pc_string (pc_varint_enc (len s) ++ s) = Some s.
Proof.
  intros U L. unfold pc_string. rewrite pc_varint_roundtrip by exact L.
  rewrite take_n_exact by (unfold len; lia). now rewrite U.
Qed.

Lemma bytes_ok_app a b : bytes_ok (a ++ b) = bytes_ok a && bytes_ok b.
Proof. apply forallb_app. Qed.

Lemma bytes_ok_skipn n a : bytes_ok a = true -> bytes_ok (skipn n a) = true.
Proof.
  intros H. rewrite <- (firstn_skipn n a), bytes_ok_app in H. now apply andb_prop in H.
Qed.

Section Complete.
Variable P : prims.
Hypothesis OK : prims_ok P.

Lemma pc64_sig sg r : length sg = 64%nat -> pc_bytes64 (pc_varint_enc 64 ++ sg ++ r) = Some (sg, r).
Proof.
  intros L. unfold pc_bytes64. rewrite pc_varint_roundtrip by (cbn; lia).
  rewrite take_n_app by (rewrite L; reflexivity). reflexivity.
Qed.

Lemma pc_key_pk sk r : pc_key P (pk_of P sk ++ r) = Some (pk_of P sk, r).
Proof.
  unfold pc_key. destruct (pk_shape P OK sk) as [L _].
  rewrite take_n_app by (rewrite L; reflexivity). now rewrite (pk_point P OK).
Qed.

Lemma pc_km_auth_honest sk km : length km = 32%nat ->
  pc_km_auth P (km_auth_bytes P sk km) = Some (pk_of P sk, sign P sk (firstn 16 km), skipn 16 km).
Proof.
  intros L. unfold pc_km_auth, km_auth_bytes. rewrite pc_key_pk.
  destruct (sig_shape P OK sk (firstn 16 km)) as [LS _].
  rewrite pc64_sig by exact LS.
  rewrite take_n_exact; [reflexivity|]. rewrite skipn_length, L. reflexivity.
Qed.

Lemma pc_client_auth_honest sk msg :
  pc_client_auth P (pk_of P sk ++ pc_varint_enc 64 ++ sign P sk msg) = Some (pk_of P sk, sign P sk msg).
Proof.
  unfold pc_client_auth. rewrite pc_key_pk.
  destruct (sig_shape P OK sk msg) as [LS _]. pose proof (pc64_sig _ [] LS) as E.
  rewrite app_nil_r in E. now rewrite E.
Qed.

Lemma km_auth_bytes_ok sk km : bytes_ok km = true -> bytes_ok (km_auth_bytes P sk km) = true.
Proof.
  intros H. unfold km_auth_bytes. rewrite !bytes_ok_app.
  destruct (pk_shape P OK sk) as [_ ->]. destruct (sig_shape P OK sk (firstn 16 km)) as [_ ->].
  rewrite bytes_ok_skipn by exact H. reflexivity.
Qed.

Variables (sk : bytes) (kmt : list (bytes * option bytes)) (kmd : option bytes) (i : sinput).
Let pk := pk_of P sk.
Let caf := client_auth_frame P sk (s_challenge i).
Let hdr := fst (client_header P sk kmt kmd (io0 [] [])).
Let i' := mkS hdr (s_kmt i) (s_kmd i) (s_challenge i) [RFrame caf] (s_wfaults i) (s_access i) (s_with i).

Hypothesis KMC : forall km, assoc kmt pk kmd = Some km -> length km = 32%nat /\ bytes_ok km = true.
Hypothesis NOFAULT : s_wfaults i = [].

(* where prims_ok enters, directly and through the lemmas above; what follows uses it through
   this lemma only *)
Lemma honest_input : honest_run P i' pk (assoc kmt pk kmd).
Proof.
  unfold honest_run. cbn [s_header s_reads s_wfaults s_challenge i']. split; [|split].
  - unfold hdr, client_header, export. cbn [fst]. fold pk.
    destruct (assoc kmt pk kmd) as [km|] eqn:A; cbn [fst]; [|reflexivity].
    destruct (KMC _ eq_refl) as [L B].
    exists (b64_encode (km_auth_bytes P sk km)), (km_auth_bytes P sk km), (sign P sk (firstn 16 km)).
    split; [reflexivity|]. split; [apply b64_roundtrip, km_auth_bytes_ok, B|].
    split; [apply pc_km_auth_honest, L | apply (sign_verify P OK)].
  - eexists caf, [], _, _. split; [reflexivity|].
    split; [apply ft_tag; reflexivity|].
    split; [apply pc_client_auth_honest | apply (sign_verify P OK)].
  - left. exact NOFAULT.
Qed.

Hypothesis CHLEN : length (s_challenge i) = 16%nat.
Hypothesis REASON : forall r, s_access i = Deny (Some r) -> utf8_ok r = true /\ len r < 2 ^ 64.

Definition same_material : Prop :=
  exists km, assoc kmt pk kmd = Some km /\ assoc (s_kmt i) pk (s_kmd i) = Some km.
Definition material_mismatch : Prop :=
  assoc kmt pk kmd = None \/ assoc (s_kmt i) pk (s_kmd i) = None \/
  exists a b, assoc kmt pk kmd = Some a /\ assoc (s_kmt i) pk (s_kmd i) = Some b /\ skipn 16 a <> skipn 16 b.

Lemma serverside_honest :
  exists m w, serverside P i' (io0 (s_reads i') (s_wfaults i')) = (Ok (pk, m), w) /\
    (same_material -> m = MECH_KM) /\ (material_mismatch -> m = MECH_CH) /\
    wfl w = [] /\
    ((m = MECH_KM /\ out w = [] /\ nrd w = 0) \/
     (m = MECH_CH /\ out w = [challenge_frame (s_challenge i)] /\ nrd w = 1)).
Proof.
  destruct (serverside_complete P i' pk _ honest_input) as (m & R & _ & M1 & M2).
  destruct (serverside P i' _) as [r w] eqn:S. cbn [fst] in R. subst r.
  exists m, w. split; [reflexivity|].
  split; [intros (km & A & B); exact (M1 km A B)|]. split; [exact M2|].
  apply serverside_sound in S as [(E & _ & O & N & W) | (E & _ & O & N & W)];
    cbn in O, N, W; rewrite NOFAULT in W; auto 10.
Qed.

Lemma fin_frame_type :
  exists t p, frame_type (fin_frame (s_access i)) = Ok (t, p) /\ (t = TAG_CONFIRM \/ t = TAG_DENY) /\
    client_finish t p =
      match s_access i with
      | Allow => (Ok tt, None)
      | Deny r => (Err E_DENIED, Some (reason_of r))
      end.
Proof.
  destruct (s_access i) as [|r]; cbn [fin_frame].
  - exists TAG_CONFIRM, []. repeat split; auto.
  - exists TAG_DENY, (pc_varint_enc (len (reason_of r)) ++ reason_of r).
    split; [apply ft_tag; reflexivity|]. split; [auto|].
    assert (RO : utf8_ok (reason_of r) = true /\ len (reason_of r) < 2 ^ 64).
    { destruct r as [r|]; [exact (REASON r eq_refl) | split; reflexivity]. }
    unfold client_finish. change (TAG_DENY =? TAG_CONFIRM) with false. cbv iota.
    now rewrite pc_string_roundtrip by apply RO.
Qed.

Theorem honest_session :
  let so := fst (session P sk kmt kmd i) in
  let co := snd (session P sk kmt kmd i) in
  (exists m, so_res so = Ok (pk, m) /\ (m = MECH_KM \/ m = MECH_CH) /\
     (same_material -> m = MECH_KM) /\ (material_mismatch -> m = MECH_CH) /\
     so_nreads so = (if m =? MECH_CH then 1 else 0) /\
     co_written co = (if m =? MECH_CH then [caf] else [])) /\
  match s_access i with
  | Allow => so_auth so = Some (Ok pk) /\ co_res co = Ok tt
  | Deny r => so_auth so = Some (Err E_DENIED) /\ co_res co = Err E_DENIED /\
              co_reason co = Some (reason_of r)
  end.
Proof.
  unfold session. fold hdr. fold caf. fold i'. cbn [fst snd].
  destruct serverside_honest as (m & w & S & M1 & M2 & W & MO).
  destruct (authorize_honest i' w pk W) as (w1 & l1 & l2 & A & O1 & N1).
  destruct fin_frame_type as (t & p & FT & T & FIN).
  assert (SO : server P i' = mkSO (Ok (pk, m)) (Some (verdict (s_access i) pk))
                 (out w1) (nrd w1) (exps w1) l1 l2).
  { unfold server. rewrite S, A. reflexivity. }
  rewrite SO. cbn [so_res so_auth so_nreads so_written].
  unfold client. cbn [c_sk c_kmt c_kmd c_reads c_wfaults].
  destruct (client_header P sk kmt kmd (io0 (map RFrame (out w1)) [])) as [h0 w0] eqn:H0.
  apply client_header_io in H0 as (Wo & Ww & Wr & Wn). cbn in Wo, Ww, Wr, Wn. rewrite O1 in Wr.
  destruct MO as [(-> & O & N0) | (-> & O & N0)]; rewrite O in Wr; cbn [map app] in Wr.
  - rewrite (clientside_final P sk w0 _ _ t p Wr FT T), FIN.
    destruct (s_access i); cbn [co_res co_reason co_written out]; rewrite Wo;
      (split; [exists MECH_KM; rewrite N1, N0; repeat split; auto | auto]).
  - rewrite (clientside_challenged P sk w0 _ _ _ t p CHLEN Ww Wr FT T), FIN.
    destruct (s_access i); cbn [co_res co_reason co_written out]; rewrite Wo;
      (split; [exists MECH_CH; rewrite N1, N0; repeat split; auto | auto]).
Qed.

End Complete.

(* Stated over [same_material] and [material_mismatch] with their arguments, as they read outside
   Section Complete: hence a section of its own under the same premises. *)
Section Corollaries.
Variable P : prims.
Hypothesis OK : prims_ok P.
Variables (sk : bytes) (kmt : list (bytes * option bytes)) (kmd : option bytes) (i : sinput).
Hypothesis KMC : forall km, assoc kmt (pk_of P sk) kmd = Some km -> length km = 32%nat /\ bytes_ok km = true.
Hypothesis NOFAULT : s_wfaults i = [].
Hypothesis CHLEN : length (s_challenge i) = 16%nat.
Hypothesis REASON : forall r, s_access i = Deny (Some r) -> utf8_ok r = true /\ len r < 2 ^ 64.

Lemma auth_complete_km : same_material P sk kmt kmd i ->
  so_res (fst (session P sk kmt kmd i)) = Ok (pk_of P sk, MECH_KM) /\
  so_nreads (fst (session P sk kmt kmd i)) = 0.
Proof.
  intros S. destruct (honest_session P OK sk kmt kmd i KMC NOFAULT CHLEN REASON)
    as [(m & R & _ & M1 & _ & N & _) _].
  rewrite (M1 S) in *. auto.
Qed.

Lemma auth_complete_challenge : material_mismatch P sk kmt kmd i ->
  so_res (fst (session P sk kmt kmd i)) = Ok (pk_of P sk, MECH_CH) /\
  co_written (snd (session P sk kmt kmd i)) = [client_auth_frame P sk (s_challenge i)].
Proof.
  intros S. destruct (honest_session P OK sk kmt kmd i KMC NOFAULT CHLEN REASON)
    as [(m & R & _ & _ & M2 & _ & W) _].
  rewrite (M2 S) in *. auto.
Qed.

Lemma deny_reported r : s_access i = Deny r ->
  so_auth (fst (session P sk kmt kmd i)) = Some (Err E_DENIED) /\
  co_res (snd (session P sk kmt kmd i)) = Err E_DENIED /\
  co_reason (snd (session P sk kmt kmd i)) = Some (reason_of r).
Proof.
  intros D. destruct (honest_session P OK sk kmt kmd i KMC NOFAULT CHLEN REASON) as [_ H].
  rewrite D in H. exact H.
Qed.
End Corollaries.

(* prims_ok is satisfiable: a toy instantiation *)
Definition pad (n : nat) (l : bytes) : bytes := firstn n (map (fun b => b mod 256) l ++ repeat 0 n).
Definition P0 : prims :=
  mkPrims (fun _ => true)
          (fun k m s => bytes_eqb s (pad 64 (k ++ m)))
          (fun sk => pad 32 sk)
          (fun sk m => pad 64 (pad 32 sk ++ m))
          (fun _ m => pad 32 m).

Lemma pad_len n l : length (pad n l) = n.
Proof. unfold pad. rewrite firstn_length, app_length, repeat_length. lia. Qed.

Lemma pad_ok n l : bytes_ok (pad n l) = true.
Proof.
  unfold pad, bytes_ok. apply forallb_firstn. rewrite forallb_app. apply andb_true_intro. split.
  - induction l as [|a l IH]; cbn; auto. rewrite IH. unfold byte_ok.
    now rewrite (proj2 (N.ltb_lt _ _)) by now apply N.mod_lt.
  - now apply forallb_repeat.
Qed.

Lemma P0_ok : prims_ok P0.
Proof.
  constructor; cbn [P0 verify pk_of sign is_point blake3_derive]; intros.
  - apply bytes_eqb_refl.
  - reflexivity.
  - split; [apply pad_len | apply pad_ok].
  - split; [apply pad_len | apply pad_ok].
  - apply pad_len.
Qed.

Definition ex_km : bytes := repeat 7 32%nat.
Definition ex_i (kms : option bytes) (a : access) : sinput :=
  mkS None [] kms (repeat 9 16%nat) [] [] a true.

Example ex_km_path :
  let so := fst (session P0 [1; 2; 3] [] (Some ex_km) (ex_i (Some ex_km) Allow)) in
  so_res so = Ok (pad 32 [1; 2; 3], MECH_KM) /\ so_auth so = Some (Ok (pad 32 [1; 2; 3])) /\
  so_written so = [confirm_frame] /\ so_nreads so = 0 /\ so_log1 so = [1] /\ so_log2 so = [1; 2].
Proof. vm_compute. repeat split. Qed.

Example ex_challenge_deny :
  let s := session P0 [1; 2; 3] [] (Some ex_km) (ex_i None (Deny (Some (str_bytes "no")))) in
  so_res (fst s) = Ok (pad 32 [1; 2; 3], MECH_CH) /\ so_auth (fst s) = Some (Err E_DENIED) /\
  co_res (snd s) = Err E_DENIED /\ co_reason (snd s) = Some (str_bytes "no") /\
  so_log2 (fst s) = [1].
Proof. vm_compute. repeat split. Qed.

(* a replay: a ClientAuth signed for another challenge (8s, not 9s) is refused *)
Example ex_replay_refused :
  let i := mkS None [] None (repeat 9 16%nat)
             [RFrame (client_auth_frame P0 [1; 2; 3] (repeat 8 16%nat))] [] Allow false in
  so_res (server P0 i) = Err E_DENIED /\
  so_written (server P0 i) = [challenge_frame (repeat 9 16%nat); deny_frame SIG_INVALID].
Proof. vm_compute. repeat split. Qed.
