(* C29 — proofs about the AddressLookupStream model.  From any state s the polls are `pending s`
   and then None for ever (polls_pending); for the stream over the merged list l that is l wrapped,
   then NoResults if l has no item (polls_resolve).  The merged list of the
   executable model is an interleaving of the per-service streams (merge_interleave); of
   interleavings the monitor needs two facts: they are permutations of the concatenation
   (interleave_perm), and filtering by the head source gives back that source and leaves an
   interleaving of the others (interleave_peel), which per_service_order_from iterates along the
   list of services. *)
From V Require Import Lib.Base Lib.Lists Model.C29.
From Coq Require Import Permutation.
From V Require Import Lib.LiaBool.
Import C29.
Open Scope N_scope.

Definition wrap (x : inner) : oev :=
  match x with IOk s q => OItem s q | IErr s q => OErr s q end.

Fixpoint errs_of (l : list inner) : list (N * N) :=
  match l with
  | IErr s q :: r => (s, q) :: errs_of r
  | _ :: r => errs_of r
  | [] => []
  end.

(* the first n polls of a stream that yields `l` and then `None` for ever *)
Fixpoint then_end (n : nat) (l : list oev) : list oev :=
  match n with
  | O => []
  | S n' => match l with
            | [] => OEnd :: then_end n' []
            | x :: r => x :: then_end n' r
            end
  end.

Lemma then_end_nil n : then_end n [] = repeat OEnd n.
Proof. induction n; cbn; congruence. Qed.

Lemma then_end_app l n : then_end (length l + n) l = l ++ repeat OEnd n.
Proof. induction l; cbn; [apply then_end_nil|]. now rewrite IHl. Qed.

Lemma then_end_firstn_ge n : forall l m, (n <= m)%nat ->
  then_end n l = firstn n (l ++ repeat OEnd m).
Proof.
  induction n as [|n IH]; intros l m Hm; [reflexivity|].
  destruct l as [|x r]; cbn [then_end app].
  - destruct m as [|m]; [lia|]. cbn [repeat firstn]. f_equal. apply (IH [] m). lia.
  - cbn [firstn]. f_equal. apply IH. lia.
Qed.

Lemma then_end_firstn n l : then_end n l = firstn n (l ++ repeat OEnd n).
Proof. now apply then_end_firstn_ge. Qed.

(* what a stream in state s still yields before `None` for ever; a poll takes its head *)
Definition pending (s : st) : list oev :=
  if closed s then [] else
  match streams s with
  | None => [ONoService]
  | Some l => map wrap l ++ (if did_emit s || has_ok l then [] else [ONoResults (errors s ++ errs_of l)])
  end.

Lemma poll_next_pending s :
  fst (poll_next s) = hd OEnd (pending s) /\ pending (snd (poll_next s)) = tl (pending s).
Proof.
  destruct s as [str errs de [|]]; [split; reflexivity|].
  destruct str as [[|[a q|a q] r]|]; unfold poll_next, pending;
    cbn [closed streams did_emit errors fst snd map wrap app has_ok existsb errs_of hd tl].
  - rewrite app_nil_r. destruct de; split; reflexivity.
  - rewrite orb_true_r. split; reflexivity.
  - rewrite <- app_assoc. split; reflexivity.
  - split; reflexivity.
Qed.

Lemma polls_pending n : forall s, polls n s = then_end n (pending s).
Proof.
  induction n as [|n IH]; intros s; [reflexivity|]. cbn [polls].
  destruct (poll_next_pending s) as [He Hs]. destruct (poll_next s) as [e s']. cbn [fst snd] in *.
  rewrite IH, He, Hs. now destruct (pending s).
Qed.

(* stream_out ss l is all that the stream over the merged list l yields before None for ever;
   stream_spec spells it and terminal out *)
Definition terminal (l : list inner) : list oev :=
  if has_ok l then [] else [ONoResults (errs_of l)].

Definition stream_out (ss : list svc) (l : list inner) : list oev :=
  match ss with
  | [] => [ONoService]
  | _ => map wrap l ++ terminal l
  end.

Lemma polls_resolve ss l n : polls n (resolve ss l) = then_end n (stream_out ss l).
Proof. rewrite polls_pending. now destruct ss. Qed.

(* npolls: the harness polls through the first None and `extra` times more *)
Lemma polls_npolls ss l extra :
  polls (npolls ss l extra) (resolve ss l) = stream_out ss l ++ repeat OEnd (S (N.to_nat extra)).
Proof.
  rewrite polls_resolve, <- then_end_app. f_equal.
  destruct ss; cbn [npolls stream_out]; [cbn; lia|].
  unfold terminal. rewrite app_length, map_length. destruct (has_ok l); cbn [length]; lia.
Qed.

Inductive Interleave {A} : list (list A) -> list A -> Prop :=
| il_nil ls : Forall (fun l => l = []) ls -> Interleave ls []
| il_cons l1 x xs l2 r :
    Interleave (l1 ++ xs :: l2) r -> Interleave (l1 ++ (x :: xs) :: l2) (x :: r).

Lemma interleave_perm {A} (ls : list (list A)) l : Interleave ls l -> Permutation (concat ls) l.
Proof.
  induction 1 as [ls H | l1 x xs l2 r _ IH].
  - apply concat_nil_Forall in H. now rewrite H.
  - rewrite concat_app in *. cbn [concat] in *.
    rewrite <- app_comm_cons. etransitivity; [symmetry; apply Permutation_middle|].
    now constructor.
Qed.

(* Un-merging the head source.  No position is involved: the element drawn comes from the head
   (l1 = []) or it does not. *)
Lemma interleave_peel {A} (p : A -> bool) m ls l :
  Interleave (m :: ls) l ->
  Forall (fun x => p x = true) m -> Forall (Forall (fun x => p x = false)) ls ->
  filter p l = m /\ Interleave ls (filter (fun x => negb (p x)) l).
Proof.
  intros H. remember (m :: ls) as L eqn:E. revert m ls E.
  induction H as [L H | l1 x xs l2 r _ IH]; intros m ls E Hm Hls.
  - subst L. rewrite (Forall_inv H). split; [reflexivity|]. apply il_nil, (Forall_inv_tail H).
  - destruct l1 as [|a l1]; injection E as <- <-; cbn [filter].
    + rewrite (Forall_inv Hm). cbn [negb].
      destruct (IH xs l2 eq_refl (Forall_inv_tail Hm) Hls) as [-> HI]. now split.
    + rewrite (Forall_inv (Forall_elt _ _ _ Hls)). cbn [negb].
      destruct (IH a (l1 ++ xs :: l2) eq_refl Hm) as [-> HI]; [|split; [reflexivity|apply il_cons, HI]].
      apply Forall_app in Hls as [H1 H2]. apply Forall_app. split; [exact H1|].
      constructor; [exact (Forall_inv_tail (Forall_inv H2))|exact (Forall_inv_tail H2)].
Qed.

Fixpoint inner_items (s q : N) (items : list (N * kind)) : list inner :=
  match items with
  | [] => []
  | (_, k) :: r => mk_inner s q k :: inner_items s (q + 1) r
  end.

Definition cur_items (c : cur) : list inner := inner_items (c_idx c) (c_pos c) (c_rest c).

Definition streams_of (ss : list svc) : list (list inner) := map cur_items (cursors 0 ss).

Lemma pop_split s cs t x cs' :
  pop s cs = Some (t, x, cs') ->
  exists l1 xs l2, map cur_items cs = l1 ++ (x :: xs) :: l2 /\ map cur_items cs' = l1 ++ xs :: l2.
Proof.
  revert t x cs'; induction cs as [|c r IH]; intros t x cs' H; [discriminate|].
  cbn [pop] in H. destruct (N.eqb_spec (c_idx c) s) as [E|E].
  - destruct (c_rest c) as [|[d k] items] eqn:R; [discriminate|]. injection H as <- <- <-.
    exists [], (inner_items s (c_pos c + 1) items), (map cur_items r).
    cbn [map]. unfold cur_items at 1. rewrite R, E. split; reflexivity.
  - destruct (pop s r) as [[[t' x'] r']|]; [|discriminate]. injection H as <- <- <-.
    destruct (IH _ _ _ eq_refl) as (l1 & xs & l2 & E1 & E2).
    exists (cur_items c :: l1), xs, l2. cbn [map]. rewrite E1, E2. split; reflexivity.
Qed.

Lemma all_done_items cs : all_done cs = true -> Forall (fun l => l = []) (map cur_items cs).
Proof.
  induction cs as [|c r IH]; cbn; intros H; [constructor|].
  apply andb_prop in H as [H1 H2]. constructor; [|auto].
  unfold cur_items. destruct (c_rest c); [reflexivity | discriminate].
Qed.

Lemma merge_interleave : forall sched cs tl cs',
  merge cs sched = Some (tl, cs') -> all_done cs' = true ->
  Interleave (map cur_items cs) (map snd tl).
Proof.
  induction sched as [|s r IH]; intros cs tl cs' H D; cbn [merge] in H.
  - injection H as <- <-. apply il_nil, all_done_items, D.
  - destruct (pop s cs) as [[[t x] cs1]|] eqn:P; [|discriminate].
    destruct (merge cs1 r) as [[l cs2]|] eqn:M; [|discriminate]. injection H as <- <-.
    destruct (pop_split _ _ _ _ _ P) as (l1 & xs & l2 & -> & E).
    specialize (IH _ _ _ M D). rewrite E in IH. apply il_cons, IH.
Qed.

Definition svc_of (x : inner) : N := match x with IOk s _ | IErr s _ => s end.

Lemma inner_items_svc s q items x : In x (inner_items s q items) -> svc_of x = s.
Proof.
  revert q; induction items as [|[d k] r IH]; intros q; cbn; [tauto|].
  intros [<-|H]; [now destruct k | eauto].
Qed.

Lemma cursors_idx i ss c : In c (cursors i ss) -> i <= c_idx c < i + len ss.
Proof.
  revert i; induction ss as [|[[items e]|] r IH]; intros i; cbn [cursors In]; [tauto| |].
  - intros [<-|H]; cbn [c_idx]; unfold len in *; cbn [length]; [lia|]. apply IH in H. lia.
  - intros H. apply IH in H. unfold len in *; cbn [length]. lia.
Qed.

Lemma interleave_range cs l x :
  Interleave (map cur_items cs) l -> In x l -> exists c, In c cs /\ c_idx c = svc_of x.
Proof.
  intros H Hx. apply (Permutation_in _ (Permutation_sym (interleave_perm _ _ H))) in Hx.
  apply in_concat in Hx as (li & Hli & Hx). apply in_map_iff in Hli as (c & <- & Hc).
  exists c. split; [exact Hc|]. symmetry. exact (inner_items_svc _ _ _ _ Hx).
Qed.

(* what the cursor of service s has left to yield, [] if s has no cursor *)
Definition pick (s : N) (cs : list cur) : list inner :=
  match find (fun c => N.eqb (c_idx c) s) cs with
  | Some c => cur_items c
  | None => []
  end.

Lemma per_service_order_from ss : forall i l,
  Interleave (map cur_items (cursors i ss)) l ->
  forall s, filter (fun x => N.eqb (svc_of x) s) l = pick s (cursors i ss).
Proof.
  induction ss as [|[[items e]|] r IH]; intros i l H s; cbn [cursors map] in *.
  - inversion H; [reflexivity|]. now destruct l1.
  - (* the head cursor holds service i, the later ones hold services above i *)
    destruct (interleave_peel (fun x => N.eqb (svc_of x) i) _ _ _ H) as [Hc Hr].
    + apply Forall_forall. intros x Hx. apply inner_items_svc in Hx. now apply N.eqb_eq.
    + apply Forall_forall. intros m (c' & <- & Hc')%in_map_iff. apply Forall_forall. intros x Hx.
      apply inner_items_svc in Hx. apply cursors_idx in Hc'. apply N.eqb_neq. lia.
    + unfold pick. cbn [find c_idx]. destruct (N.eqb_spec i s) as [<-|Hne]; [exact Hc|].
      etransitivity; [|exact (IH _ _ Hr s)]. symmetry. apply filter_filter_imp.
      intros x Hx%N.eqb_eq. apply negb_true_iff, N.eqb_neq. congruence.
  - now apply IH.
Qed.

Lemma per_service_order : forall ss l,
  Interleave (streams_of ss) l ->
  forall s, filter (fun x => N.eqb (svc_of x) s) l = pick s (cursors 0 ss).
Proof. intros ss. apply per_service_order_from. Qed.

Lemma stream_spec : forall (ss : list svc) (l : list inner) (n : nat),
  Interleave (streams_of ss) l ->
  polls n (resolve ss l) =
    then_end n (match ss with
                | [] => [ONoService]
                | _ => map wrap l ++ (if has_ok l then [] else [ONoResults (errs_of l)])
                end)
  /\ Permutation (concat (streams_of ss)) l.
Proof.
  intros ss l n H. split; [apply polls_resolve | now apply interleave_perm].
Qed.

Lemma map_snd_stamp ts tend evs : map snd (stamp ts tend evs) = evs.
Proof.
  revert ts; induction evs as [|e r IH]; intros ts; [reflexivity|].
  cbn [stamp]. destruct ts; cbn; now rewrite IH.
Qed.

Lemma model_in_spec : forall ss sched extra out,
  model (ss, sched, extra) = Ok out ->
  exists l, Interleave (streams_of ss) l /\
            map snd out = polls (npolls ss l extra) (resolve ss l).
Proof.
  intros ss sched extra out. unfold model.
  destruct (merge (cursors 0 ss) sched) as [[tl cs]|] eqn:M; [|discriminate].
  destruct (all_done cs) eqn:D; cbn [negb]; [|discriminate]. intros [= <-].
  exists (map snd tl). split; [exact (merge_interleave _ _ _ _ M D) | apply map_snd_stamp].
Qed.

Lemma after_end : forall s, closed s = true -> poll_next s = (OEnd, s).
Proof. intros s H. unfold poll_next. now rewrite H. Qed.

Lemma terminal_closes : forall s e s',
  poll_next s = (e, s') -> is_inner e = false -> closed s' = true.
Proof.
  intros s e s'. unfold poll_next. destruct (closed s) eqn:C.
  - intros [= <- <-] _. exact C.
  - destruct (streams s) as [[|[a q|a q] r]|]; [destruct (negb (did_emit s))| | |];
      intros [= <- <-] Hi; [reflexivity|reflexivity|discriminate Hi|discriminate Hi|reflexivity].
Qed.

Lemma pairNN_eqb_refl x : pairNN_eqb x x = true.
Proof. unfold pairNN_eqb. now rewrite !N.eqb_refl. Qed.

Lemma oev_eqb_refl e : oev_eqb e e = true.
Proof.
  destruct e; cbn; rewrite ?N.eqb_refl; auto.
  apply list_eqb_refl, pairNN_eqb_refl.
Qed.

Lemma pairNN_eqb_eq x y : pairNN_eqb x y = true -> x = y.
Proof.
  destruct x, y. unfold pairNN_eqb. cbn. intros [H1%N.eqb_eq H2%N.eqb_eq]%andb_prop. congruence.
Qed.

Lemma oev_eqb_eq a b : oev_eqb a b = true -> a = b.
Proof.
  destruct a, b; cbn; try discriminate; auto.
  - intros [H1%N.eqb_eq H2%N.eqb_eq]%andb_prop. congruence.
  - intros [H1%N.eqb_eq H2%N.eqb_eq]%andb_prop. congruence.
  - intros H. f_equal. exact (list_eqb_eq _ pairNN_eqb_eq _ _ H).
Qed.

Lemma is_inner_wrap x : is_inner (wrap x) = true.
Proof. now destruct x. Qed.

Lemma span_inner_wrap l tail :
  match tail with [] => True | e :: _ => is_inner e = false end ->
  span_inner (map wrap l ++ tail) = (map wrap l, tail).
Proof.
  intros Ht. induction l as [|x r IH]; cbn [map app].
  - destruct tail as [|e t]; [reflexivity|]. cbn [span_inner]. now rewrite Ht.
  - cbn [span_inner]. rewrite is_inner_wrap, IH. reflexivity.
Qed.

Lemma body_has_ok_wrap l : body_has_ok (map wrap l) = has_ok l.
Proof. unfold body_has_ok, has_ok. induction l as [|[s q|s q] r IH]; cbn in *; auto. Qed.

Lemma body_errs_wrap l : body_errs (map wrap l) = errs_of l.
Proof. induction l as [|[s q|s q] r IH]; cbn in *; congruence. Qed.

Lemma all_end_repeat n : all_end (repeat OEnd n) = true.
Proof. now apply forallb_repeat. Qed.

Lemma of_svc_wrap s x : of_svc s (wrap x) = N.eqb (svc_of x) s.
Proof. now destruct x. Qed.

Lemma filter_wrap s l : filter (of_svc s) (map wrap l) = map wrap (filter (fun x => N.eqb (svc_of x) s) l).
Proof.
  induction l as [|x r IH]; [reflexivity|]. cbn [map filter]. rewrite of_svc_wrap.
  destruct (N.eqb (svc_of x) s); cbn [map]; now rewrite IH.
Qed.

Lemma expect_svc_inner s q items : expect_svc s q items = map wrap (inner_items s q items).
Proof.
  revert q; induction items as [|[d k] r IH]; intros q; [reflexivity|].
  cbn [expect_svc inner_items map]. destruct k; cbn [mk_inner wrap]; now rewrite IH.
Qed.

Lemma pick_cursors_lt i ss s : s < i -> pick s (cursors i ss) = [].
Proof.
  intros Hs. unfold pick. destruct (find _ _) as [c|] eqn:F; [|reflexivity].
  apply find_some in F as [Hin E]. apply cursors_idx in Hin. apply N.eqb_eq in E. lia.
Qed.

Lemma filter_nil_existsb {A} (f : A -> bool) l : filter f l = [] <-> existsb f l = false.
Proof.
  induction l as [|a l IH]; [easy|]. cbn [filter existsb].
  destruct (f a); [split; discriminate|exact IH].
Qed.

Lemma svcs_ok_of_pick body : forall ss i,
  (forall s, i <= s -> filter (of_svc s) body = map wrap (pick s (cursors i ss))) ->
  svcs_ok i ss body = true.
Proof.
  induction ss as [|[[items e]|] r IH]; intros i H; [reflexivity| |];
    cbn [svcs_ok]; apply andb_true_intro; split.
  - rewrite (H i) by lia. unfold pick. cbn [cursors find c_idx]. rewrite N.eqb_refl.
    unfold cur_items. cbn [c_idx c_pos c_rest]. rewrite expect_svc_inner.
    apply list_eqb_refl, oev_eqb_refl.
  - apply IH. intros s Hs. rewrite (H s) by lia. unfold pick. cbn [cursors find c_idx].
    now replace (i =? s) with false by lia.
  - apply negb_true_iff, filter_nil_existsb. rewrite (H i) by lia. cbn [cursors].
    now rewrite pick_cursors_lt by lia.
  - apply IH. intros s Hs. apply H. lia.
Qed.

Lemma in_range_wrap n x : in_range n (wrap x) = (svc_of x <? n).
Proof. now destruct x. Qed.

Lemma model_monitor : forall i, valid i = true -> monitor i (model i) = true.
Proof.
  intros [[ss sched] extra]. unfold valid.
  destruct (model (ss, sched, extra)) as [out| |] eqn:E; try discriminate. intros _.
  apply model_in_spec in E as (l & HI & Eo).
  cbn [monitor]. rewrite Eo, polls_npolls.
  destruct ss as [|s0 ss'].
  - apply all_end_repeat.
  - set (ss := s0 :: ss') in *.
    unfold ss at 1 2. cbn [stream_out repeat]. rewrite <- app_assoc.
    rewrite span_inner_wrap by (unfold terminal; destruct (has_ok l); reflexivity).
    apply andb_true_intro. split; [apply andb_true_intro; split|].
    + apply forallb_forall. intros e He. apply in_map_iff in He as (x & <- & Hx).
      rewrite in_range_wrap. destruct (interleave_range _ _ _ HI Hx) as (c & Hc & E).
      apply cursors_idx in Hc. apply N.ltb_lt. unfold ss in *. lia.
    + apply svcs_ok_of_pick. intros s _. rewrite filter_wrap. f_equal. exact (per_service_order ss l HI s).
    + unfold terminal. rewrite body_has_ok_wrap, body_errs_wrap.
      destruct (has_ok l); cbn [app negb andb].
      * apply all_end_repeat.
      * rewrite (list_eqb_refl _ pairNN_eqb_refl). apply all_end_repeat.
Qed.

(* the events service number s owes the stream; none if its resolve declined *)
Definition svc_events (s : N) (v : svc) : list oev :=
  match v with None => [] | Some (items, _) => expect_svc s 0 items end.

(* the shape of an accepted output: the elements of every service in that service's order and
   nothing else, the terminal the body calls for, then None for ever *)
Definition out_spec (ss : list svc) (evs : list oev) : Prop :=
  match ss with
  | [] => exists n, evs = ONoService :: OEnd :: repeat OEnd n
  | _ => exists body n,
      evs = body ++ (if body_has_ok body then [] else [ONoResults (body_errs body)])
                 ++ OEnd :: repeat OEnd n /\
      Forall (fun e => is_inner e = true /\ in_range (len ss) e = true) body /\
      forall k, (k < length ss)%nat ->
        filter (of_svc (N.of_nat k)) body = svc_events (N.of_nat k) (nth k ss None)
  end.

Lemma all_end_repeat_inv r : all_end r = true -> r = repeat OEnd (length r).
Proof. apply forallb_eq_repeat. now intros []. Qed.

Lemma span_inner_spec evs body tail :
  span_inner evs = (body, tail) -> evs = body ++ tail /\ Forall (fun e => is_inner e = true) body.
Proof.
  revert body tail; induction evs as [|e r IH]; intros body tail H; cbn [span_inner] in H.
  - injection H as <- <-. split; [reflexivity | constructor].
  - destruct (is_inner e) eqn:E.
    + destruct (span_inner r) as [a b]. injection H as <- <-. destruct (IH _ _ eq_refl) as [-> F].
      split; [reflexivity | now constructor].
    + injection H as <- <-. split; [reflexivity | constructor].
Qed.

Lemma svcs_ok_spec body : forall ss i, svcs_ok i ss body = true ->
  forall k, (k < length ss)%nat ->
    filter (of_svc (i + N.of_nat k)) body = svc_events (i + N.of_nat k) (nth k ss None).
Proof.
  induction ss as [|v r IH]; intros i H k Hk; [cbn in Hk; lia|].
  assert (Hv : filter (of_svc i) body = svc_events i v /\ svcs_ok (i + 1) r body = true).
  { cbn [svcs_ok] in H. destruct v as [[items e]|]; apply andb_prop in H as [H1 H2]; (split; [|exact H2]).
    - exact (list_eqb_eq _ oev_eqb_eq _ _ H1).
    - apply filter_nil_existsb, negb_true_iff, H1. }
  destruct Hv as [H1 H2]. destruct k as [|k]; cbn [nth].
  - now replace (i + N.of_nat 0) with i by lia.
  - replace (i + N.of_nat (S k)) with (i + 1 + N.of_nat k) by lia.
    apply IH; [assumption|cbn in Hk; lia].
Qed.

Lemma monitor_sound : forall ss sched extra tevs,
  monitor (ss, sched, extra) (Ok tevs) = true -> out_spec ss (map snd tevs).
Proof.
  intros ss sched extra tevs. cbn [monitor]. set (evs := map snd tevs). clearbody evs.
  destruct ss as [|v ss'].
  - cbn [out_spec]. destruct evs as [|[] evs]; try discriminate.
    destruct evs as [|[] r]; try discriminate.
    intros H. exists (length r). do 2 f_equal. now apply all_end_repeat_inv.
  - set (ss := v :: ss'). destruct (span_inner evs) as [body tail] eqn:S.
    destruct (span_inner_spec _ _ _ S) as [-> Fi].
    intros H. apply andb_prop in H as [H H3]. apply andb_prop in H as [H1 H2].
    (* the terminal is the one the body calls for, then None for ever *)
    assert (Ht : exists n, tail = (if body_has_ok body then [] else [ONoResults (body_errs body)])
                                  ++ OEnd :: repeat OEnd n).
    { destruct tail as [|[] r]; try discriminate.
      - destruct r as [|[] r]; try discriminate.
        apply andb_prop in H3 as [H3 H5]. apply andb_prop in H3 as [H3 H4].
        apply negb_true_iff in H3. apply (list_eqb_eq _ pairNN_eqb_eq) in H4.
        exists (length r). rewrite H3, H4. cbn [app]. do 2 f_equal. now apply all_end_repeat_inv.
      - apply andb_prop in H3 as [H3 H4].
        exists (length r). rewrite H3. cbn [app]. f_equal. now apply all_end_repeat_inv. }
    destruct Ht as (n & ->). unfold out_spec, ss at 1. exists body, n. split; [reflexivity|]. split.
    + rewrite Forall_forall in *. rewrite forallb_forall in H1. auto.
    + exact (svcs_ok_spec body ss 0 H2).
Qed.

Example ex_services : list svc :=
  [Some ([(0, KErr); (5, KOk)], 1); None; Some ([(2, KErr)], 0)].

Example ex_valid : valid (ex_services, [0; 2; 0], 2) = true.
Proof. vm_compute. reflexivity. Qed.

Example ex_model :
  model (ex_services, [0; 2; 0], 1) =
  Ok [(0, OErr 0 0); (2, OErr 2 0); (5, OItem 0 1); (6, OEnd); (6, OEnd)].
Proof. vm_compute. reflexivity. Qed.

Example ex_no_results :
  model ([Some ([(3, KErr)], 0); Some ([(1, KErr)], 9)], [1; 0], 0) =
  Ok [(1, OErr 1 0); (3, OErr 0 0); (10, ONoResults [(1, 0); (0, 0)]); (10, OEnd)].
Proof. vm_compute. reflexivity. Qed.

Example ex_interleave : Interleave (streams_of ex_services) [IErr 0 0; IErr 2 0; IOk 0 1].
Proof.
  unfold streams_of, ex_services. cbn.
  apply (il_cons [] (IErr 0 0) [IOk 0 1] [[IErr 2 0]]). cbn.
  apply (il_cons [[IOk 0 1]] (IErr 2 0) [] []). cbn.
  apply (il_cons [] (IOk 0 1) [] [[]]). cbn.
  constructor. repeat constructor.
Qed.

(* the monitor rejects: a dropped element, a missing terminal, a second terminal, an element
   after the end, NoResults although an item was yielded, NoResults where NoService is due *)
Example mon_rejects :
  let i := (ex_services, [0; 2; 0], 0) in
  monitor i (Ok [(0, OErr 0 0); (5, OItem 0 1); (6, OEnd)]) = false /\
  monitor ([Some ([(0, KErr)], 0)], [0], 0) (Ok [(0, OErr 0 0); (0, OEnd)]) = false /\
  monitor ([Some ([(0, KErr)], 0)], [0], 0)
          (Ok [(0, OErr 0 0); (0, ONoResults [(0, 0)]); (0, ONoResults [(0, 0)]); (0, OEnd)]) = false /\
  monitor i (Ok [(0, OErr 0 0); (2, OErr 2 0); (5, OItem 0 1); (6, OEnd); (6, OItem 0 1)]) = false /\
  monitor i (Ok [(0, OErr 0 0); (2, OErr 2 0); (5, OItem 0 1); (6, ONoResults [(0, 0); (2, 0)]); (6, OEnd)]) = false /\
  monitor ([], [], 0) (Ok [(0, ONoResults []); (0, OEnd)]) = false.
Proof. vm_compute. repeat split. Qed.
