(* C38: a lookup that starts after a publish is acknowledged is not answered from an older
   packet.  Inv relates store, cache, invalidation count and the monitor's state; every step of
   the fixed code keeps it and is accepted by the monitor. *)
From V Require Import Lib.Base Lib.Lists Lib.Trace Model.C38.
Import C38.
Open Scope N_scope.

(* [ge] is the byte order on the timestamp put in front of the encoding; [ble] has the body of
   [lex_le], so [lex_le_cons] reads a goal on [ble] as well *)
Definition rank (p : pkt) : bytes := pts p :: penc p.

Lemma ge_rank a b : ge a b = lex_le (rank b) (rank a).
Proof.
  unfold ge, more_recent. cbn [rank lex_le].
  destruct (N.eqb_spec (pts b) (pts a)) as [->|]; [now rewrite N.ltb_irrefl, negb_involutive|].
  destruct (N.ltb_spec (pts a) (pts b)), (N.ltb_spec (pts b) (pts a)); try reflexivity; lia.
Qed.

Lemma ge_iff a b :
  ge a b = true <-> pts b < pts a \/ pts b = pts a /\ ble (penc b) (penc a) = true.
Proof. rewrite ge_rank. apply lex_le_cons. Qed.

Lemma ge_refl a : ge a a = true.
Proof. rewrite ge_rank. apply lex_le_refl. Qed.

Lemma ge_trans a b c : ge a b = true -> ge b c = true -> ge a c = true.
Proof. rewrite !ge_rank. intros H1 H2. exact (lex_le_trans _ _ _ H2 H1). Qed.

Lemma ge_total a b : ge a b = false -> ge b a = true.
Proof. rewrite !ge_rank. apply lex_le_total. Qed.

Lemma ts_lt_ge a b : pts b < pts a -> ge a b = true.
Proof. intros H. apply ge_iff. now left. Qed.

Lemma ge_ts a b : ge a b = true -> pts b <= pts a.
Proof. rewrite ge_iff. lia. Qed.

Lemma more_recent_ge e p : more_recent e p = true -> ge e p = true.
Proof.
  intros H. destruct (ge e p) eqn:E; [reflexivity|]. apply ge_total in E.
  unfold ge in E. rewrite H in E. discriminate.
Qed.

Lemma pubs_in tasks : forall i p, nth_error tasks i = Some (TPublish p) -> In p (pubs tasks).
Proof.
  induction tasks as [|t r IH]; intros [|i] p H; cbn in H; try discriminate.
  - injection H as ->. cbn. now left.
  - specialize (IH _ _ H). destruct t; cbn; auto.
Qed.

Lemma triple_eqb_refl x : triple_eqb x x = true.
Proof. destruct x as [[a b] c]. cbn. now rewrite !N.eqb_refl. Qed.

(* fresh_R and fresh_G are this check, each with its test of the answer *)
Lemma fresh_iff (test : pkt -> bool) (T : pkt -> Prop) ps k need :
  (forall q, test q = true <-> T q) ->
  (forallb (fun p => negb (pkey p =? k) ||
     existsb (fun q => (pkey q =? k) && ge q p && test q) ps) need = true <->
   forall p, In p need -> pkey p = k ->
     exists q, In q ps /\ pkey q = k /\ ge q p = true /\ T q).
Proof.
  intros Ht. apply forallb_iff; intros p. apply nimpb_iff; [apply N.eqb_eq|].
  apply existsb_iff; intros q. apply andb_assoc_iff.
  apply andb_iff; [apply N.eqb_eq|]. apply andb_iff; [apply iff_refl|apply Ht].
Qed.

Lemma fresh_R_iff ps k nm a need :
  fresh_R ps k nm a need = true <->
  forall p, In p need -> pkey p = k ->
    exists q, In q ps /\ pkey q = k /\ ge q p = true /\ ans q nm = a.
Proof. apply fresh_iff. intros q. apply opt_N_eqb_iff. Qed.

(* what lookup i is measured against: the publishes acknowledged before its first event *)
Definition need_of (m : mst) (i : nat) : list pkt :=
  match needs m i with Some n => n | None => acked m end.
Definition m1_of (m : mst) (i : nat) : mst :=
  mkMst (acked m) (updn (needs m) i (Some (need_of m i))).

(* A monitor step checks the answer, notes what the task is measured against and records an
   acknowledgement. *)
Definition mcheck (tasks : list task) (t : task) (o : obs) (need : list pkt) : bool :=
  match t, o with
  | TResolve k nm, ODoneR a => fresh_R (pubs tasks) k nm a need
  | TGet k, ODoneG r => fresh_G (pubs tasks) k r need
  | _, _ => true
  end.
Definition mack (t : task) (o : obs) : list pkt :=
  match t, o with TPublish p, ODoneP true => [p] | _, _ => [] end.

Lemma mon_step_some tasks m i t o :
  nth_error tasks i = Some t -> o <> OSkip ->
  mon_step tasks m i o =
  if mcheck tasks t o (need_of m i)
  then Some (mkMst (mack t o ++ acked m) (needs (m1_of m i))) else None.
Proof.
  intros Ht Ho. destruct o; [destruct (Ho eq_refl)|unfold mon_step; rewrite Ht; destruct t; try reflexivity ..].
  now destruct u.
Qed.

Lemma mon_step_none tasks m i o : nth_error tasks i = None -> mon_step tasks m i o = Some m.
Proof. intros Ht. destruct o; unfold mon_step; rewrite ?Ht; reflexivity. Qed.

Lemma need_of_some m i N : needs m i = Some N -> need_of m i = N.
Proof. unfold need_of. now intros ->. Qed.

Lemma m1_needs_same m i N : needs m i = Some N -> forall j, needs (m1_of m i) j = needs m j.
Proof.
  intros H j. unfold m1_of, updn. cbn. rewrite (need_of_some _ _ _ H).
  destruct (Nat.eqb_spec j i); [subst; now rewrite H|reflexivity].
Qed.

Lemma mon_step_shape tasks m j o m' :
  mon_step tasks m j o = Some m' ->
  m' = m \/ exists A, m' = mkMst (A ++ acked m) (needs (m1_of m j)).
Proof.
  destruct (nth_error tasks j) as [t|] eqn:Ht; [|rewrite (mon_step_none _ _ _ _ Ht); intros [= <-]; now left].
  assert (S : o = OSkip \/ o <> OSkip) by (destruct o; auto; right; discriminate).
  destruct S as [->|Ho]; [intros [= <-]; now left|].
  rewrite (mon_step_some _ _ _ _ _ Ht Ho). destruct (mcheck _ _ _ _); intros [= <-]; eauto.
Qed.

Lemma mon_step_covers tasks i p m j o m' :
  In p (need_of m i) -> mon_step tasks m j o = Some m' -> In p (need_of m' i).
Proof.
  intros C H. destruct (mon_step_shape _ _ _ _ _ H) as [->|(A & ->)]; [exact C|].
  unfold need_of, m1_of, updn in *. cbn [needs acked].
  destruct (Nat.eqb_spec i j) as [->|]; [exact C|]. destruct (needs m i); [exact C|]. apply in_or_app. now right.
Qed.

Lemma mon_step_needs tasks m j o m' i :
  mon_step tasks m j o = Some m' -> i <> j -> needs m' i = needs m i.
Proof.
  intros H Ne. destruct (mon_step_shape _ _ _ _ _ H) as [->|(A & ->)]; [reflexivity|].
  unfold m1_of, updn. cbn [needs]. destruct (Nat.eqb_spec i j); [contradiction|reflexivity].
Qed.

Definition mon_events (tasks : list task) : mst -> list event -> option mst :=
  orun (fun m e => mon_step tasks m (fst e) (snd e)).

Lemma mon_run_app tasks : forall l1 m l2,
  mon_run tasks m (l1 ++ l2) =
  match mon_events tasks m l1 with Some m1 => mon_run tasks m1 l2 | None => false end.
Proof.
  induction l1 as [|[i o] r IH]; intros m l2; cbn; [reflexivity|].
  destruct (mon_step tasks m i o); auto.
Qed.

Lemma mon_events_needs tasks i : forall l m m',
  mon_events tasks m l = Some m' -> (forall o, In (i, o) l -> o = OSkip) -> needs m' i = needs m i.
Proof.
  induction l as [|[j o] r IH]; cbn; intros m m' H Hi; [now injection H as <-|].
  destruct (mon_step tasks m j o) as [m1|] eqn:E; [|discriminate].
  rewrite (IH _ _ H) by (intros o' Ho'; apply Hi; now right).
  destruct (Nat.eq_dec i j) as [->|Ne]; [|eapply mon_step_needs; eauto].
  rewrite (Hi o (or_introl eq_refl)) in E. now injection E as <-.
Qed.

(* If an accepted run contains the acknowledgement of publish p as an update, and later the
   answer of a lookup for p's key whose first event comes after that acknowledgement, then the
   answer is that of a published packet for the key that is not older than p. *)
Lemma monitor_sound tasks sched os :
  monitor (tasks, sched) os = true ->
  forall l1 l2 l3 j p i k nm a,
    os = l1 ++ (j, ODoneP true) :: l2 ++ (i, ODoneR a) :: l3 ->
    nth_error tasks j = Some (TPublish p) ->
    nth_error tasks i = Some (TResolve k nm) ->
    pkey p = k ->
    (forall o, In (i, o) l1 -> o = OSkip) ->
    exists q, In q (pubs tasks) /\ pkey q = k /\ ge q p = true /\ ans q nm = a.
Proof.
  intros H l1 l2 l3 j p i k nm a -> Hj Hi Hk Hfirst.
  unfold monitor in H.
  rewrite mon_run_app in H. destruct (mon_events tasks minit l1) as [m1|] eqn:E1; [|discriminate].
  cbn [mon_run] in H. rewrite (mon_step_some _ _ _ _ _ Hj) in H by discriminate.
  cbn [mcheck mack app] in H.
  rewrite mon_run_app in H. destruct (mon_events tasks _ l2) as [m3|] eqn:E2; [|discriminate].
  cbn [mon_run] in H. rewrite (mon_step_some _ _ _ _ _ Hi) in H by discriminate.
  cbn [mcheck] in H.
  destruct (fresh_R _ _ _ _ _) eqn:F; [|discriminate].
  apply (proj1 (fresh_R_iff _ _ _ _ _) F p); [|exact Hk].
  (* p is acknowledged before the first event of lookup i, and stays what i is measured against *)
  refine (orun_inv _ (fun m => In p (need_of m i))
            (fun m e => mon_step_covers tasks i p m (fst e) (snd e)) _ _ _ _ E2).
  unfold need_of, m1_of, updn. cbn [needs acked].
  destruct (Nat.eqb_spec i j) as [->|]; [congruence|].
  rewrite (mon_events_needs _ _ _ _ _ E1 Hfirst). now left.
Qed.

Definition stored_ge (sto : N -> option pkt) (p : pkt) : Prop :=
  exists e, sto (pkey p) = Some e /\ ge e p = true.

Definition newest (g : pkt) (k : N) (ps : list pkt) : Prop :=
  forall p, In p ps -> pkey p = k -> ge g p = true.

(* A lookup that saw the present invalidation count holds a packet not older than ANY
   acknowledged publish (each acknowledgement raises the count), otherwise only than those it is
   measured against. *)
Definition pc_ok (tasks : list task) (sto : N -> option pkt) (inv : N) (ack : list pkt)
    (t : task) (c : pc) (need : option (list pkt)) : Prop :=
  match t, c with
  | TResolve _ _, RChecked seen => seen <= inv
  | TResolve k _, RGot seen g =>
      pkey g = k /\ In g (pubs tasks) /\ seen <= inv /\
      (exists N, need = Some N /\ newest g k N) /\
      (seen = inv -> newest g k ack)
  | TPublish p, PUpserted => stored_ge sto p
  | _, _ => True
  end.

Record Inv (tasks : list task) (s : st) (m : mst) : Prop := {
  (* stored packets were published, under their own key *)
  i_store : forall k e, store s k = Some e -> pkey e = k /\ In e (pubs tasks);
  i_acked : forall p, In p (acked m) -> stored_ge (store s) p;
  (* a cached zone is not older than any acknowledged publish for its key *)
  i_cache : forall k c, cache s k = Some c -> pkey c = k /\ In c (pubs tasks) /\ newest c k (acked m);
  i_needs : forall i N, needs m i = Some N -> incl N (acked m);
  i_pc : forall i t, nth_error tasks i = Some t ->
      pc_ok tasks (store s) (inval s) (acked m) t (pcs s i) (needs m i) }.

Lemma inv_init tasks : Inv tasks init minit.
Proof. constructor; cbn; intros; try discriminate; try contradiction. now destruct t. Qed.

Lemma need_incl tasks s m i : Inv tasks s m -> incl (need_of m i) (acked m).
Proof.
  intros Hinv. unfold need_of. destruct (needs m i) eqn:E; [eapply i_needs; eauto|apply incl_refl].
Qed.

Lemma pc_ok_mono tasks sto inv ack sto' inv' ack' t c need :
  (forall q, stored_ge sto q -> stored_ge sto' q) ->
  inv <= inv' -> (inv' = inv -> ack' = ack) ->
  pc_ok tasks sto inv ack t c need -> pc_ok tasks sto' inv' ack' t c need.
Proof.
  intros Hsto Hle Hack. destruct t, c; cbn; auto; [lia|].
  intros (Gk & Gin & Hseen & Hneed & Hcur). repeat split; auto; [lia|].
  intros E. rewrite Hack by lia. apply Hcur. lia.
Qed.

Lemma inv_m1 tasks s m i : Inv tasks s m -> Inv tasks s (m1_of m i).
Proof.
  intros Hinv. constructor; cbn [m1_of acked needs]; try apply Hinv.
  - intros j N. unfold updn. destruct (Nat.eqb_spec j i) as [->|].
    + intros [= <-]. eapply need_incl; eauto.
    + apply Hinv.
  - intros j t Ht. pose proof (i_pc _ _ _ Hinv j t Ht) as H.
    unfold updn. destruct (Nat.eqb_spec j i) as [->|]; [|exact H].
    destruct t, (pcs s i); cbn in *; auto.
    destruct H as (Gk & Gin & Hseen & (N & HN & Hneed) & Hcur).
    rewrite (need_of_some _ _ _ HN). eauto 10.
Qed.

Lemma inv_set_pc tasks s m i t c :
  Inv tasks s m -> nth_error tasks i = Some t ->
  pc_ok tasks (store s) (inval s) (acked m) t c (needs m i) ->
  Inv tasks (set_pc s i c) m.
Proof.
  intros Hinv Ht Hc. constructor; cbn [set_pc store cache inval pcs]; try apply Hinv.
  intros j t' Ht'. unfold updn. destruct (Nat.eqb_spec j i) as [->|]; [|now apply Hinv].
  rewrite Ht in Ht'. now injection Ht' as <-.
Qed.

Lemma inv_m1_pc tasks s m i t c :
  Inv tasks s m -> nth_error tasks i = Some t ->
  pc_ok tasks (store s) (inval s) (acked m) t c (Some (need_of m i)) ->
  Inv tasks (set_pc s i c) (m1_of m i).
Proof.
  intros Hinv Ht Hc. apply inv_set_pc with t; [apply inv_m1, Hinv|exact Ht|].
  cbn [m1_of needs acked]. unfold updn. now rewrite Nat.eqb_refl.
Qed.

(* ZoneCache::insert *)
Lemma inv_fill tasks s m g :
  Inv tasks s m -> In g (pubs tasks) -> newest g (pkey g) (acked m) ->
  Inv tasks (mkSt (store s) (cache_insert (cache s) g) (inval s) (pcs s)) m.
Proof.
  intros Hinv Gin Gnew. constructor; cbn [store cache inval pcs]; try apply Hinv.
  assert (U : forall k c, upd (cache s) (pkey g) (Some g) k = Some c ->
            pkey c = k /\ In c (pubs tasks) /\ newest c k (acked m)).
  { intros k c. unfold upd. destruct (N.eqb_spec k (pkey g)) as [->|].
    - intros [= <-]. auto.
    - apply Hinv. }
  unfold cache_insert. destruct (cache s (pkey g)) as [old|]; [destruct (pts g <? pts old)|]; auto.
  apply Hinv.
Qed.

Lemma cache_insert_some c g : exists z, cache_insert c g (pkey g) = Some z.
Proof.
  unfold cache_insert, upd. destruct (c (pkey g)) as [old|] eqn:E; [destruct (pts g <? pts old)|];
    rewrite ?N.eqb_refl; eauto.
Qed.

Lemma inv_upsert tasks s m p :
  Inv tasks s m -> In p (pubs tasks) ->
  (forall e, store s (pkey p) = Some e -> ge p e = true) ->
  Inv tasks (mkSt (upd (store s) (pkey p) (Some p)) (cache s) (inval s) (pcs s)) m.
Proof.
  intros Hinv Pin Hnew.
  assert (Hmono : forall q, stored_ge (store s) q -> stored_ge (upd (store s) (pkey p) (Some p)) q).
  { intros q (e & He & Hge). unfold stored_ge, upd.
    destruct (N.eqb_spec (pkey q) (pkey p)) as [Eq|]; [|eauto].
    exists p. split; [reflexivity|]. rewrite Eq in He. eapply ge_trans; eauto. }
  constructor; cbn [store cache inval pcs]; try apply Hinv.
  - intros k e. unfold upd. destruct (N.eqb_spec k (pkey p)) as [->|].
    + intros [= <-]. auto.
    + apply Hinv.
  - intros q Hq. apply Hmono, Hinv, Hq.
  - intros j t Ht. apply pc_ok_mono with (4 := i_pc _ _ _ Hinv j t Ht); [exact Hmono|apply N.le_refl|reflexivity].
Qed.

(* ZoneCache::remove with its count, and the acknowledgement of the publish *)
Lemma inv_invalidate tasks s m p :
  Inv tasks s m -> stored_ge (store s) p ->
  Inv tasks (mkSt (store s) (upd (cache s) (pkey p) None) (inval s + 1) (pcs s))
            (mkMst (p :: acked m) (needs m)).
Proof.
  intros Hinv Hp. constructor; cbn [store cache inval pcs acked needs]; try apply Hinv.
  - intros q [<-|Hq]; [exact Hp|now apply Hinv].
  - intros k c. unfold upd. destruct (N.eqb_spec k (pkey p)) as [->|Ne]; [discriminate|].
    intros Hc. destruct (i_cache _ _ _ Hinv _ _ Hc) as (Ck & Cin & Cnew). repeat split; auto.
    intros q [<-|Hq] Hk; [congruence|auto].
  - intros j N HN. apply incl_tl. eapply i_needs; eauto.
  - intros j t Ht. apply pc_ok_mono with (4 := i_pc _ _ _ Hinv j t Ht); [auto|lia|lia].
Qed.

Definition accepted (tasks : list task) (m : mst) (evs : list event) (s' : st) : Prop :=
  exists m', mon_events tasks m evs = Some m' /\ Inv tasks s' m'.

Lemma accepted_app tasks m evs1 s1 evs2 s2 :
  accepted tasks m evs1 s1 -> (forall m1, Inv tasks s1 m1 -> accepted tasks m1 evs2 s2) ->
  accepted tasks m (evs1 ++ evs2) s2.
Proof.
  intros (m1 & H1 & Hinv1) Hrest. destruct (Hrest m1 Hinv1) as (m2 & H2 & Hinv2).
  exists m2. split; [|exact Hinv2]. unfold mon_events in *. now rewrite orun_app, H1.
Qed.

(* an observed step of a listed task is accepted when its check holds; the monitor then holds
   the note for the task and, for an acknowledged update, the packet.  For every other t and o
   [mack t o] computes to [[]] and the state asked for to [m1_of m i], itself a [mkMst] over
   [acked m], so inv_m1_pc and inv_invalidate close that premise as stated *)
Lemma accepted_step tasks s' m i t o :
  nth_error tasks i = Some t -> o <> OSkip -> mcheck tasks t o (need_of m i) = true ->
  Inv tasks s' (mkMst (mack t o ++ acked m) (needs (m1_of m i))) ->
  accepted tasks m [(i, o)] s'.
Proof.
  intros Ht Ho C Hinv. eexists. split; [|exact Hinv].
  unfold mon_events. cbn [orun fst snd]. now rewrite (mon_step_some _ _ _ _ _ Ht Ho), C.
Qed.

(* the observations of a schedule entry that leaves the base state as it is: a finished or queued
   task, a step disabled by the lock, parking inside a lock scope.  ([step] also gives [OPark] for
   points 1 to 3, with a change of state: those go through accepted_step.)  The monitor only does
   its bookkeeping on them: it notes what the task is measured against *)
Definition no_step (o : obs) : bool :=
  match o with OSkip | OBlocked | OPark _ => true | _ => false end.

Lemma book_inv tasks s m i o : Inv tasks s m -> no_step o = true -> accepted tasks m [(i, o)] s.
Proof.
  intros Hinv Ho. destruct (nth_error tasks i) as [t|] eqn:Ht.
  - destruct o; try discriminate.
    1:{ exists m. split; [reflexivity|exact Hinv]. }
    (* OPark, OBlocked: whatever the task, nothing to check and nothing acknowledged *)
    all: apply (accepted_step _ _ _ _ _ _ Ht); [discriminate|now destruct t|].
    all: destruct t; apply inv_m1, Hinv.
  - exists m. split; [|exact Hinv]. unfold mon_events. cbn [orun fst snd]. now rewrite (mon_step_none _ _ _ _ Ht).
Qed.

Lemma step_inv tasks s m i :
  Inv tasks s m -> let '(s', o) := step true tasks s i in accepted tasks m [(i, o)] s'.
Proof.
  intros Hinv. unfold step.
  destruct (nth_error tasks i) as [t|] eqn:Ht; [|now apply book_inv].
  pose proof (i_pc _ _ _ Hinv i t Ht) as Hpc.
  pose proof (need_incl _ _ _ i Hinv) as Hneeds.
  destruct t as [k nm|p|k]; destruct (pcs s i) as [|seen|seen g| |]; try (now apply book_inv).
  - (* resolve, cache check *)
    destruct (cache_resolve (cache s) k nm) as [v|] eqn:Hr.
    + apply (accepted_step _ _ _ _ _ _ Ht); [discriminate| |now apply inv_m1_pc with (TResolve k nm)].
      unfold cache_resolve in Hr. destruct (cache s k) as [z|] eqn:Hc; [|discriminate].
      destruct (i_cache _ _ _ Hinv _ _ Hc) as (Zk & Zin & Znew).
      apply fresh_R_iff. intros p Hp Hk. exists z. auto 6.
    + apply (accepted_step _ _ _ _ _ _ Ht); [discriminate|reflexivity|].
      apply inv_m1_pc with (TResolve k nm); auto. apply N.le_refl.
  - (* resolve, store read *)
    destruct (store s k) as [g|] eqn:Hs.
    + apply (accepted_step _ _ _ _ _ _ Ht); [discriminate|reflexivity|].
      apply inv_m1_pc with (TResolve k nm); auto.
      destruct (i_store _ _ _ Hinv _ _ Hs) as (Gk & Gin).
      assert (B : newest g k (acked m)).
      { intros p Hp Hk. destruct (i_acked _ _ _ Hinv _ Hp) as (e & He & Hge).
        rewrite Hk, Hs in He. now injection He as <-. }
      repeat split; auto. exists (need_of m i). split; [reflexivity|].
      intros p Hp. apply B, Hneeds, Hp.
    + apply (accepted_step _ _ _ _ _ _ Ht); [discriminate| |now apply inv_m1_pc with (TResolve k nm)].
      apply fresh_R_iff. intros p Hp Hk.
      destruct (i_acked _ _ _ Hinv p (Hneeds p Hp)) as (e & He & _).
      rewrite Hk, Hs in He. discriminate.
  - (* resolve, cache fill / answer *)
    destruct Hpc as (Gk & Gin & Hle & (N & HN & Hneed) & Hcur).
    rewrite <- (need_of_some _ _ _ HN) in Hneed.
    cbn [andb]. destruct (N.eqb_spec seen (inval s)) as [E|E]; cbn [negb].
    + (* no invalidation since the check: fill, answer from the cache *)
      assert (Hinv' : Inv tasks (mkSt (store s) (cache_insert (cache s) g) (inval s)
                                      (updn (pcs s) i Finished)) (m1_of m i)).
      { apply (inv_fill tasks (set_pc s i Finished)); [|exact Gin|rewrite Gk; exact (Hcur E)].
        now apply inv_m1_pc with (TResolve k nm). }
      apply (accepted_step _ _ _ _ _ _ Ht); [discriminate| |exact Hinv'].
      destruct (cache_insert_some (cache s) g) as (z & Hz).
      destruct (i_cache _ _ _ Hinv' _ _ Hz) as (Zk & Zin & Znew).
      unfold cache_resolve. rewrite Hz. apply fresh_R_iff.
      intros p Hp Hk. exists z. subst k. repeat split; auto.
    + (* invalidated since the check: answer from the packet, no fill *)
      apply (accepted_step _ _ _ _ _ _ Ht); [discriminate| |now apply inv_m1_pc with (TResolve k nm)].
      apply fresh_R_iff. intros p Hp Hk. exists g. auto 6.
  - (* publish, upsert *)
    destruct (match store s (pkey p) with Some e => negb (more_recent e p) | None => true end) eqn:Hr;
      (apply (accepted_step _ _ _ _ _ _ Ht); [discriminate|reflexivity|]).
    + apply (inv_set_pc tasks (mkSt (upd (store s) (pkey p) (Some p)) (cache s) (inval s) (pcs s))
               _ i (TPublish p)); [|exact Ht|].
      * apply inv_upsert; [apply inv_m1, Hinv|eapply pubs_in; eauto|].
        intros e He. rewrite He in Hr. exact Hr.
      * exists p. cbn [store]. unfold upd. rewrite N.eqb_refl. split; [reflexivity|apply ge_refl].
    + now apply inv_m1_pc with (TPublish p).
  - (* publish, cache invalidation and acknowledgement *)
    apply (accepted_step _ _ _ _ _ _ Ht); [discriminate|reflexivity|].
    apply (inv_invalidate tasks (set_pc s i Finished) (m1_of m i)); [|exact Hpc].
    now apply inv_m1_pc with (TPublish p).
  - (* get_signed_packet *)
    apply (accepted_step _ _ _ _ _ _ Ht); [discriminate| |now apply inv_m1_pc with (TGet k)].
    (* fresh_G read like fresh_R, its test of the answer left as it is:
       [opt_eqb triple_eqb (Some (triple q)) (option_map triple (store s k)) = true] *)
    apply (fresh_iff _ _ _ _ _ (fun q => iff_refl _)). intros p Hp Hk.
    destruct (i_acked _ _ _ Hinv p (Hneeds p Hp)) as (e & He & Hge).
    rewrite Hk in He. destruct (i_store _ _ _ Hinv _ _ He) as (Ek & Ein).
    exists e. rewrite He. repeat split; auto. apply triple_eqb_refl.
Qed.

Lemma wake_inv tasks : forall ws s m,
  Inv tasks s m -> let '(s', evs) := wake true tasks s ws in accepted tasks m evs s'.
Proof.
  induction ws as [|w r IH]; intros s m Hinv; cbn [wake].
  - exists m. split; [reflexivity|exact Hinv].
  - pose proof (step_inv tasks s m w Hinv) as Hstep.
    destruct (step true tasks s w) as [s1 o]. specialize (IH s1).
    destruct (wake true tasks s1 r) as [s2 evs2].
    exact (accepted_app _ _ [(w, o)] s1 _ _ Hstep IH).
Qed.

Lemma xstep_inv tasks x m e :
  Inv tasks (base x) m -> let '(x', evs) := xstep true tasks x e in accepted tasks m evs (base x').
Proof.
  intros Hinv. destruct e as [i hold]. unfold xstep.
  pose proof (step_inv tasks (base x) m i Hinv) as Hstep.
  destruct (negb (live tasks (base x) i)); [now apply book_inv|].
  destruct (existsb (Nat.eqb i) (waiters x)); [now apply book_inv|].
  destruct (holder x) as [j|].
  - destruct (Nat.eqb i j).
    + destruct (step true tasks (base x) i) as [s1 o].
      pose proof (wake_inv tasks (waiters x) s1) as Hwake.
      destruct (wake true tasks s1 (waiters x)) as [s2 evs2].
      exact (accepted_app _ _ [(i, o)] s1 _ _ Hstep Hwake).
    + destruct (needs_lock tasks (base x) i); [now apply book_inv|].
      destruct (step true tasks (base x) i). exact Hstep.
  - destruct (if hold then hold_point tasks (base x) i else None) as [pt|]; [now apply book_inv|].
    destruct (step true tasks (base x) i). exact Hstep.
Qed.

Lemma xrun_monitor tasks : forall sched x m,
  Inv tasks (base x) m -> mon_run tasks m (xrun true tasks x sched) = true.
Proof.
  induction sched as [|e r IH]; intros x m Hinv; cbn [xrun]; [reflexivity|].
  pose proof (xstep_inv tasks x m e Hinv) as Hstep.
  destruct (xstep true tasks x e) as [x' evs]. destruct Hstep as (m1 & H1 & Hinv1).
  rewrite mon_run_app, H1. exact (IH x' m1 Hinv1).
Qed.

(* every run of the model, whatever the schedule and the parking inside lock scopes, is accepted
   by the monitor; [model] is [model_fx FIXED] and [FIXED] is [true], the value step_inv .. xrun_monitor speak of *)
Lemma model_monitor : forall i, monitor i (model i) = true.
Proof. intros [tasks sched]. apply xrun_monitor, inv_init. Qed.

(* while j is parked inside its lock scope, a step of i that needs the cache lock only queues i *)
Lemma locked_step_disabled fx tasks x i hold j :
  holder x = Some j -> i <> j -> live tasks (base x) i = true ->
  existsb (Nat.eqb i) (waiters x) = false -> needs_lock tasks (base x) i = true ->
  xstep fx tasks x (i, hold) = (mkX (base x) (Some j) (waiters x ++ [i]), [(i, OBlocked)]).
Proof.
  intros Hh Ne Hl Hw Hn. unfold xstep. rewrite Hl, Hw, Hh, Hn. cbn [negb].
  destruct (Nat.eqb_spec i j); [contradiction|reflexivity].
Qed.

(* monitor_sound, said of every run of the model of the code as it is *)
Lemma no_stale_after_ack tasks sched :
  forall l1 l2 l3 j p i k nm a,
    model (tasks, sched) = l1 ++ (j, ODoneP true) :: l2 ++ (i, ODoneR a) :: l3 ->
    nth_error tasks j = Some (TPublish p) ->
    nth_error tasks i = Some (TResolve k nm) ->
    pkey p = k ->
    (forall o, In (i, o) l1 -> o = OSkip) ->
    exists q, In q (pubs tasks) /\ pkey q = k /\ ge q p = true /\ ans q nm = a.
Proof. apply (monitor_sound tasks sched). apply (model_monitor (tasks, sched)). Qed.

(* the pair, its first component at type nat, so that the lists below parse in N_scope *)
Definition ev (i : nat) (o : obs) : event := (i, o).

(* the race in the code before the fix *)
Definition wp1 := mkPkt 0 1 0 1 [1].
Definition wp2 := mkPkt 0 2 0 2 [2].
Definition witness : input :=
  ([TPublish wp1; TResolve 0 0; TPublish wp2; TResolve 0 0],
   map (fun i => (i, false)) [0; 0; 1; 1; 2; 2; 1]%nat).

Lemma unfixed_refuted : exists i, monitor i (model_fx false i) = false.
Proof. exists witness. vm_compute. reflexivity. Qed.

(* the same schedule on the fixed code: the late fill is suppressed, the later lookup sees p2 *)
Example witness_fixed :
  firstn 19 (model_fx true witness) =
  [ev 0 (OPark 3); ev 0 (ODoneP true); ev 1 (OPark 1); ev 1 (OPark 2); ev 2 (OPark 3); ev 2 (ODoneP true);
   ev 1 (ODoneR (Some 1));
   ev 0 (OSkip); ev 0 (OSkip); ev 0 (OSkip); ev 1 (OSkip); ev 1 (OSkip); ev 1 (OSkip); ev 2 (OSkip); ev 2 (OSkip); ev 2 (OSkip);
   ev 3 (OPark 1); ev 3 (OPark 2); ev 3 (ODoneR (Some 2))].
Proof. vm_compute. reflexivity. Qed.

(* a lookup parked inside its cache lock scope holds up the invalidation of a publish *)
Definition lock_witness : input :=
  ([TPublish wp1; TResolve 0 0; TResolve 0 0; TPublish wp2; TResolve 0 0],
   [(0, false); (0, false); (1, false); (1, false); (1, false);   (* p1 published, looked up, cached *)
    (2, true);                                                      (* lookup 2 parks at in_cache_check *)
    (3, false); (3, false);                                         (* p2: upsert, then the invalidation must wait *)
    (2, false);                                                     (* lookup 2 leaves the scope: cache hit p1 (it started
                                                                       before the acknowledgement); the publish completes *)
    (4, false); (4, false); (4, false)]%nat).                                               (* a lookup after the acknowledgement sees p2 *)

Example lock_witness_run :
  firstn 13 (model lock_witness) =
  [ev 0 (OPark 3); ev 0 (ODoneP true); ev 1 (OPark 1); ev 1 (OPark 2); ev 1 (ODoneR (Some 1));
   ev 2 (OPark 4); ev 3 (OPark 3); ev 3 (OBlocked); ev 2 (ODoneR (Some 1)); ev 3 (ODoneP true);
   ev 4 (OPark 1); ev 4 (OPark 2); ev 4 (ODoneR (Some 2))].
Proof. vm_compute. reflexivity. Qed.

(* what an implementation that skips the invalidation when the lock is busy (try_lock) shows on
   that schedule: the publish is acknowledged although its step is disabled (agree fails), and the
   later lookup is answered from the stale zone (monitor fails) *)
Definition lock_witness_trylock_obs : output :=
  [ev 0 (OPark 3); ev 0 (ODoneP true); ev 1 (OPark 1); ev 1 (OPark 2); ev 1 (ODoneR (Some 1));
   ev 2 (OPark 4); ev 3 (OPark 3); ev 3 (ODoneP true); ev 2 (ODoneR (Some 1)); ev 4 (ODoneR (Some 1))].

Example lock_witness_trylock_rejected :
  agree lock_witness lock_witness_trylock_obs = false /\
  monitor lock_witness lock_witness_trylock_obs = false.
Proof. vm_compute. split; reflexivity. Qed.

Example lock_witness_tag : tag lock_witness = 6.
Proof. vm_compute. reflexivity. Qed.
