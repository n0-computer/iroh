(* C28 — Preferred relay choice is current and sticky.
   This file holds ONLY the property theorems; each is closed by `exact`.
   `step_gen false` / `model` are the code after the fix recorded in notes/C28.md;
   `model_orig` is the code before it. *)
From V Require Import Lib.Base Gen.Consts Model.C27 Proofs.C27 Model.C28 Proofs.C28.
Import C28.
Open Scope N_scope.

(* One call, from ANY state whose stored tables are well formed (an invariant of every history,
   C28_history_invariant), with a report that has no preferred relay yet: the preferred relay
   set by the call satisfies call_spec, i.e.
   - it is one of the relays measured in this report, and None only if none was measured;
   - it is the previous preferred relay (kept), or its best latency over the stored reports not
     older than MAX_AGE and the current one (best_of) is minimal among the measured relays;
   - if the previous preferred relay q is still measured and the choice differs from q, then the
     new relay's best latency is at most (q's lowest latency in the current report) / 3 * 2. *)
Theorem C28_call_spec : forall st now r,
  hist_wf (prev st) -> C27.wf (lat r) -> pref r = None ->
  call_spec (prev st) now (lat r) (prev_relay_of st) (pref (snd (step_gen false st now r))).
Proof. exact step_spec. Qed.
Print Assumptions C28_call_spec.

(* The three clauses separately. *)
Theorem C28_preferred_is_measured_or_none : forall st now r,
  hist_wf (prev st) -> C27.wf (lat r) -> pref r = None ->
  match pref (snd (step_gen false st now r)) with
  | None => measured (lat r) = []
  | Some x => In x (measured (lat r))
  end.
Proof. exact preferred_is_measured_or_none. Qed.
Print Assumptions C28_preferred_is_measured_or_none.

Theorem C28_preferred_minimises_recent_best : forall st now r x,
  hist_wf (prev st) -> C27.wf (lat r) -> pref r = None ->
  pref (snd (step_gen false st now r)) = Some x ->
  Some x = prev_relay_of st \/
  forall u, In u (measured (lat r)) ->
    exists bx bu, best_of (prev st) now (lat r) x = Some bx /\
                  best_of (prev st) now (lat r) u = Some bu /\ bx <= bu.
Proof. exact preferred_minimises_recent_best. Qed.
Print Assumptions C28_preferred_minimises_recent_best.

Theorem C28_sticky : forall st now r x q,
  hist_wf (prev st) -> C27.wf (lat r) -> pref r = None ->
  prev_relay_of st = Some q -> In q (measured (lat r)) ->
  pref (snd (step_gen false st now r)) = Some x -> x <> q ->
  exists bx lowest, best_of (prev st) now (lat r) x = Some bx /\
    C27.list_min (lat_values (lat r) q) = Some lowest /\ bx <= lowest / 3 * 2.
Proof. exact sticky. Qed.
Print Assumptions C28_sticky.

Theorem C28_history_invariant : forall st now r,
  hist_wf (prev st) -> C27.wf (lat r) -> hist_wf (prev (fst (step_gen false st now r))).
Proof. exact step_hist_wf. Qed.
Print Assumptions C28_history_invariant.

(* The stored history behaves as a time-keyed map: after a call at `now` it is sorted by time, holds
   the current tables at `now`, and otherwise exactly the previously stored entries that are not
   older than MAX_AGE and were not stored at the same instant. *)
Theorem C28_history_is_recent_reports : forall st now r e,
  hist_sorted (prev st) ->
  hist_sorted (prev (fst (step_gen false st now r))) /\
  (In e (prev (fst (step_gen false st now r))) <->
   e = (now, lat r) \/ (In e (prev st) /\ now - fst e <= MAX_AGE /\ fst e <> now)).
Proof. exact step_history. Qed.
Print Assumptions C28_history_is_recent_reports.

(* best_of is the minimum of all latencies recorded for the relay in the fresh stored reports
   and the current one. *)
Theorem C28_best_of_is_min : forall h now cur u m,
  best_of h now cur u = Some m <->
  let vals := concat (map (fun e => lat_values (snd e) u) (hist_prune h now)) ++ lat_values cur u in
  In m vals /\ forall y, In y vals -> m <= y.
Proof. exact best_of_spec. Qed.
Print Assumptions C28_best_of_is_min.

(* The boolean per-call monitor implies the readable statement. *)
Theorem C28_monitor_is_property : forall h now cur pr p,
  call_ok h now cur pr p = true -> call_spec h now cur pr p.
Proof. exact call_ok_sound. Qed.
Print Assumptions C28_monitor_is_property.

(* All histories of reports (any relay sets, latencies, clock advances incl. 0 and > MAX_AGE):
   every call of the model satisfies the monitor, where "previous relay" is the preferred relay
   reported by the previous call and the stored history is the time-keyed map pruned at MAX_AGE. *)
Theorem C28_model_satisfies_monitor : forall i, monitor i (model i) = true.
Proof. exact model_monitor. Qed.
Print Assumptions C28_model_satisfies_monitor.

(* The code before the fix violates the stickiness clause (witness in corpus/C28/witness.case). *)
Theorem C28_sticky_refuted_before_fix : exists i, monitor i (model_orig i) = false.
Proof. exact orig_refuted. Qed.
Print Assumptions C28_sticky_refuted_before_fix.
