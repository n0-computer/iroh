(* C02 — Key and address encodings round-trip and parse totally.
   This file holds ONLY the property theorems; each is closed by `exact`.
   `is_point` (curve-point validity) is universally quantified: nothing is assumed
   about it.  MAXLEN = usize::MAX / 8 is the largest length data-encoding's
   decode_len accepts without its own assertion failing. *)
From V Require Import Lib.Base Lib.MachineInt Lib.BaseN Lib.Hex Lib.Leb128 Model.C02 Proofs.C02.
From Coq Require Import Sorting.Sorted.
Import C02.
Open Scope N_scope.

(* ---- the shared codec (hexlower, base32 nopad, z-base-32, any 2^k alphabet) ---- *)
Theorem C02_codec_roundtrip : forall c, codec_ok c = true -> forall bs, bytes_ok bs = true ->
  decode c (encode c bs) = Ok bs.
Proof. exact decode_encode. Qed.
Print Assumptions C02_codec_roundtrip.

(* only the encoder's output decodes: the text form of a byte string is unique *)
Theorem C02_codec_canonical : forall c, codec_ok c = true -> forall s bs, ctb c = true ->
  decode c s = Ok bs -> encode c bs = s.
Proof. exact encode_decode. Qed.
Print Assumptions C02_codec_canonical.

(* ---- public keys: every encoding round-trips ---- *)
Theorem C02_pk_hex_roundtrip : forall is_point k, valid_key is_point k ->
  pk_from_str is_point (pk_display k) = Ok k.
Proof. exact pk_hex_roundtrip. Qed.
Print Assumptions C02_pk_hex_roundtrip.

(* base32 in any mixture of upper and lower case *)
Theorem C02_pk_base32_roundtrip : forall is_point k s, valid_key is_point k ->
  ascii_upper s = pk_base32 k -> pk_from_str is_point s = Ok k.
Proof. exact pk_base32_roundtrip. Qed.
Print Assumptions C02_pk_base32_roundtrip.

Theorem C02_pk_z32_roundtrip : forall is_point k, valid_key is_point k ->
  pk_from_z32 is_point (pk_to_z32 k) = Ok k.
Proof. exact pk_z32_roundtrip. Qed.
Print Assumptions C02_pk_z32_roundtrip.

Theorem C02_pk_postcard_roundtrip : forall is_point k rest, valid_key is_point k ->
  pk_postcard_dec is_point (pk_postcard_enc k ++ rest) = Ok (k, rest).
Proof. exact pk_postcard_roundtrip. Qed.
Print Assumptions C02_pk_postcard_roundtrip.

(* ---- parsing is total: no string (any bytes, any length a 64-bit machine can hold) panics ---- *)
Theorem C02_pk_from_str_total : forall is_point s, len s <= MAXLEN -> pk_from_str is_point s <> Panic.
Proof. exact pk_from_str_total. Qed.
Print Assumptions C02_pk_from_str_total.

Theorem C02_pk_from_z32_total : forall is_point s, len s <= MAXLEN -> pk_from_z32 is_point s <> Panic.
Proof. exact pk_from_z32_total. Qed.
Print Assumptions C02_pk_from_z32_total.

Theorem C02_pk_bytes_total : forall is_point b,
  pk_try_from_slice is_point b <> Panic /\ pk_postcard_dec is_point b <> Panic.
Proof. exact (fun ip b => conj (pk_try_from_slice_total ip b) (pk_postcard_dec_total ip b)). Qed.
Print Assumptions C02_pk_bytes_total.

Theorem C02_sk_from_str_total : forall s, len s <= MAXLEN -> sk_from_str s <> Panic.
Proof. exact decode_base32_hex_total. Qed.
Print Assumptions C02_sk_from_str_total.

(* ---- public keys are only ever accepted if they are valid curve points: every entry point ---- *)
Theorem C02_pubkey_only_points_str : forall is_point s k,
  pk_from_str is_point s = Ok k -> is_point k = true /\ length k = 32%nat.
Proof. exact pk_from_str_ok. Qed.
Print Assumptions C02_pubkey_only_points_str.

Theorem C02_pubkey_only_points_z32 : forall is_point s k,
  pk_from_z32 is_point s = Ok k -> is_point k = true /\ length k = 32%nat.
Proof. exact pk_from_z32_ok. Qed.
Print Assumptions C02_pubkey_only_points_z32.

Theorem C02_pubkey_only_points_slice : forall is_point b k,
  pk_try_from_slice is_point b = Ok k -> k = b /\ is_point k = true /\ length k = 32%nat.
Proof. exact pk_try_from_slice_ok. Qed.
Print Assumptions C02_pubkey_only_points_slice.

Theorem C02_pubkey_only_points_postcard : forall is_point l k r,
  pk_postcard_dec is_point l = Ok (k, r) -> is_point k = true /\ length k = 32%nat.
Proof. exact pk_postcard_dec_ok. Qed.
Print Assumptions C02_pubkey_only_points_postcard.

(* an accepted string is the Display form, or the base32 form up to ASCII case: nothing else parses *)
Theorem C02_pk_from_str_canonical : forall is_point s k, len s <= MAXLEN ->
  pk_from_str is_point s = Ok k ->
  (length s = 64%nat /\ s = pk_display k) \/ (length s = 52%nat /\ ascii_upper s = pk_base32 k).
Proof. exact pk_from_str_canonical. Qed.
Print Assumptions C02_pk_from_str_canonical.

(* ---- CustomAddr ---- *)
(* the storage class is a function of the length, the stored bytes are the given bytes,
   and derived equality of two constructed values is equality of (id, bytes) *)
Theorem C02_custom_inline_heap_canonical : forall d,
  is_inline (copy_from_slice d) = (length d <=? 30)%nat /\ as_bytes (copy_from_slice d) = Ok d.
Proof. exact (fun d => conj (copy_inline_iff d) (as_bytes_copy d)). Qed.
Print Assumptions C02_custom_inline_heap_canonical.

Theorem C02_custom_eq_iff_bytes : forall id d id' d',
  custom_eqb (from_parts id d) (from_parts id' d') = true <-> (id = id' /\ d = d').
Proof. exact from_parts_eq_iff. Qed.
Print Assumptions C02_custom_eq_iff_bytes.

Theorem C02_custom_str_roundtrip : forall id d,
  id <= U64_MAX -> bytes_ok d = true -> 2 * len d <= MAXLEN ->
  ca_display (from_parts id d) >>= ca_from_str = Ok (from_parts id d).
Proof. exact custom_str_roundtrip. Qed.
Print Assumptions C02_custom_str_roundtrip.

Theorem C02_custom_bin_roundtrip : forall id d, id <= U64_MAX ->
  ca_to_vec (from_parts id d) >>= ca_from_bytes = Ok (from_parts id d).
Proof. exact custom_bin_roundtrip. Qed.
Print Assumptions C02_custom_bin_roundtrip.

Theorem C02_custom_from_bytes_short : forall b, (length b < 8)%nat -> ca_from_bytes b = Err 1.
Proof. exact ca_from_bytes_short. Qed.
Print Assumptions C02_custom_from_bytes_short.

Theorem C02_custom_postcard_roundtrip : forall id d rest, id <= U64_MAX -> len d <= U64_MAX ->
  ca_postcard_dec (varint_u64_enc id ++ varint_u64_enc (len d) ++ d ++ rest) = Ok (from_parts id d, rest).
Proof. exact ca_postcard_roundtrip. Qed.
Print Assumptions C02_custom_postcard_roundtrip.

Theorem C02_custom_parse_total : forall s,
  (len s <= MAXLEN -> ca_from_str s <> Panic) /\ ca_from_bytes s <> Panic /\ ca_postcard_dec s <> Panic.
Proof. exact custom_parse_total. Qed.
Print Assumptions C02_custom_parse_total.

(* ---- EndpointAddr through postcard ---- *)
(* Every well-formed EndpointAddr survives postcard: the id is a valid key (32 bytes, a curve
   point), every address is well-formed (wf_taddr: a relay URL that url::Url re-serialises to
   itself, an IP address of the right width with a u16 port, a CustomAddr in the representation
   copy_from_slice builds; lengths fit a usize), every SocketAddrV6 has flow info 0 and scope
   id 0 (v6_plain), and the addresses are listed as BTreeSet iteration gives them: strictly
   ascending in the derived order, hence without duplicates.  Decoding the encoding (followed by
   any further bytes) yields the same value and leaves exactly those bytes. *)
Theorem C02_endpoint_addr_postcard_roundtrip : forall is_point url_parse e rest,
  valid_key is_point (eid e) ->
  Forall (fun a => wf_taddr url_parse a = true /\ v6_plain a = true) (eaddrs e) ->
  StronglySorted (fun a b => taddr_cmp a b = Lt) (eaddrs e) ->
  len (eaddrs e) <= U64_MAX ->
  exists b, ea_enc e = Ok b /\ ea_dec is_point url_parse (b ++ rest) = Ok (e, rest).
Proof. exact (fun ip up e rest K F S L => endpoint_addr_postcard_roundtrip ip up e rest (conj K (conj F (conj S L)))). Qed.
Print Assumptions C02_endpoint_addr_postcard_roundtrip.

(* the boolean side condition used by the monitor is that strict sortedness *)
Theorem C02_ascending_is_strictly_sorted : forall l,
  ascending [] l = true <-> StronglySorted (fun a b => taddr_cmp a b = Lt) l.
Proof. exact ascending_sorted. Qed.
Print Assumptions C02_ascending_is_strictly_sorted.

(* the decoder never panics, on any bytes, provided url::Url's parser does not *)
Theorem C02_endpoint_addr_decode_total : forall is_point url_parse b,
  (forall s, url_parse s <> Panic) -> ea_dec is_point url_parse b <> Panic.
Proof. exact endpoint_addr_decode_total. Qed.
Print Assumptions C02_endpoint_addr_decode_total.

(* what the decoder accepts has a valid key (the first 32 bytes, a curve point) and can be
   serialised again (no CustomAddr representation on which as_bytes would panic) *)
Theorem C02_endpoint_addr_decode_accepts : forall is_point url_parse l e r,
  ea_dec is_point url_parse l = Ok (e, r) ->
  eid e = firstn 32 l /\ length (eid e) = 32%nat /\ is_point (eid e) = true /\ exists b, ea_enc e = Ok b.
Proof. exact ea_dec_ok. Qed.
Print Assumptions C02_endpoint_addr_decode_accepts.

(* ---- the monitor used on implementation outputs holds of the model, for every input of all
   14 operations outside known-finding class 1 (an address list containing a SocketAddrV6 with
   non-zero scope id or flow info) ---- *)
Theorem C02_model_satisfies_monitor : forall i, known i = 0 -> monitor i (model i) = true.
Proof. exact monitor_model. Qed.
Print Assumptions C02_model_satisfies_monitor.

(* ---- sign / verify (operation 15): on every case the harness can produce (the oracle entry is
   what the property demands, i.e. `honest`; an honest case has a 32-byte curve point as key)
   the monitor holds of an OBSERVED output exactly when a signature made by signing this
   message under this key was accepted, and anything else (another message, another key,
   a changed or crafted signature) was rejected or its key refused.  Ed25519 itself is not
   modelled: the verification answer of the model is the oracle entry of the input. ---- *)
Theorem C02_monitor_verify_is_property : forall k m sg honest pts urls (o : output),
  (honest = true -> length k = 32%nat /\ is_point_of pts k = true) ->
  monitor (OpVerify k m sg honest honest, pts, urls) o = true <->
  (if honest then o = Ok (OBytes [Ok [1]])
   else o = Ok (OBytes [Ok [0]]) \/ exists e, o = Err e).
Proof. exact monitor_verify_spec. Qed.
Print Assumptions C02_monitor_verify_is_property.

(* ---- EndpointAddr through postcard: refuted for SocketAddrV6 with scope id / flow info ---- *)
Theorem C02_endpoint_addr_postcard_refuted : exists i, known i = 1 /\ monitor i (model i) = false /\
  match i with (OpEaRt e, pts, urls) => wf_eaddr (is_point_of pts) (url_parse_of urls) e = true | _ => False end.
Proof. exact ea_v6_refuted. Qed.
Print Assumptions C02_endpoint_addr_postcard_refuted.
